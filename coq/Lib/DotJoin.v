(* Flattened names: a path of name segments joined with a separator character.
   For segments that are non-empty and do not contain the separator, `join` is injective, and
   "p is a proper prefix of q on segments" is exactly "join q starts with join p ++ [sep]".
   (Without the separator it is wrong: C09_bare_prefix_refuted.) *)
From stdpp Require Import list.

Section DotJoin.
  Context {A : Type} (sep : A).

  Definition seg_ok (s : list A) : Prop := s ≠ [] ∧ sep ∉ s.
  Definition path_ok (p : list (list A)) : Prop := Forall seg_ok p.

  Fixpoint join (p : list (list A)) : list A :=
    match p with
    | [] => []
    | s :: t => s ++ match t with [] => [] | _ => sep :: join t end
    end.

  Definition rest (t : list (list A)) : list A := match t with [] => [] | _ => sep :: join t end.

  Lemma join_cons s t : join (s :: t) = s ++ rest t.
  Proof. reflexivity. Qed.

  Lemma rest_ne t : t ≠ [] → rest t = sep :: join t.
  Proof. by destruct t. Qed.

  Lemma join_app p q : p ≠ [] → q ≠ [] → join (p ++ q) = join p ++ sep :: join q.
  Proof.
    induction p as [|s t IH]; intros Hp Hq; [done|].
    change ((s :: t) ++ q) with (s :: (t ++ q)). rewrite !join_cons.
    destruct t as [|s' t].
    - change ([] ++ q) with q. change (rest []) with (@nil A).
      rewrite (rest_ne q) by done. by rewrite app_nil_r.
    - rewrite (rest_ne ((s' :: t) ++ q)) by done. rewrite IH by done.
      rewrite (rest_ne (s' :: t)) by done. by rewrite <- app_assoc.
  Qed.

  Lemma join_snoc p x : p ≠ [] → join (p ++ [x]) = join p ++ sep :: x.
  Proof. intros Hp. rewrite join_app by done. simpl. by rewrite app_nil_r. Qed.

  Definition tailform (r : list A) : Prop := r = [] ∨ ∃ r0, r = sep :: r0.

  Lemma tailform_rest t : tailform (rest t).
  Proof. destruct t; [by left|right; eauto]. Qed.

  Lemma head_split s s' r r' :
    sep ∉ s → sep ∉ s' → tailform r → tailform r' → s ++ r = s' ++ r' → s = s' ∧ r = r'.
  Proof.
    intros Hs Hs' [->|[r0 ->]] [->|[r0' ->]] E.
    - by rewrite !app_nil_r in E.
    - destruct Hs. rewrite app_nil_r in E. rewrite E. apply elem_of_app. right. by left.
    - destruct Hs'. rewrite app_nil_r in E. rewrite <- E. apply elem_of_app. right. by left.
    - by apply not_elem_of_app_cons_inv_l in E as (-> & _ & ->).
  Qed.

  Lemma join_nil_inv p : path_ok p → join p = [] → p = [].
  Proof.
    destruct p as [|s t]; [done|]. intros Hok E. exfalso.
    apply Forall_cons in Hok as [[Hne _] _]. rewrite join_cons in E.
    apply app_eq_nil in E as [E _]. done.
  Qed.

  (* k := [] gives injectivity, k := sep :: _ the prefix test *)
  Lemma join_split p q k :
    path_ok p → path_ok q → p ≠ [] → tailform k → join p ++ k = join q → ∃ r, q = p ++ r ∧ k = rest r.
  Proof.
    intros Hp. revert q. induction Hp as [|s t [Hne Hs] Ht IH]; [done|]. intros q Hq _ Hk E.
    destruct Hq as [|s' t' [_ Hs'] Ht']; [by destruct s|].
    rewrite !join_cons, <- app_assoc in E.
    apply head_split in E as [-> E]; [|done|done| |apply tailform_rest].
    2:{ destruct t; [done|right; eauto]. }
    destruct t as [|s2 t]; [by exists t'|].
    destruct t' as [|s3 t']; [done|]. injection E as E.
    destruct (IH (s3 :: t') Ht') as (r & -> & ->); [done..|]. by exists r.
  Qed.

  Theorem join_inj p q : path_ok p → path_ok q → join p = join q → p = q.
  Proof.
    intros Hp Hq E. destruct p as [|s t]; [symmetry; by apply join_nil_inv|].
    destruct (join_split (s :: t) q [] Hp Hq) as (r & -> & Hr); [done|by left|by rewrite app_nil_r|].
    destruct r; [by rewrite app_nil_r|done].
  Qed.

  (* startswith(join p + sep) is the proper-prefix test on segments *)
  Theorem prefix_sep_iff p q :
    path_ok p → path_ok q → p ≠ [] →
    (join p ++ [sep]) `prefix_of` join q ↔ ∃ r, r ≠ [] ∧ q = p ++ r.
  Proof.
    intros Hp Hq Hne. split.
    - intros [k E]. rewrite <- app_assoc in E.
      destruct (join_split p q (sep :: k) Hp Hq Hne) as (r & -> & Hr); [right; eauto|done|].
      exists r. split; [by intros ->|done].
    - intros (r & Hr & ->). exists (join r). rewrite join_app by done.
      by rewrite <- app_assoc.
  Qed.
End DotJoin.
