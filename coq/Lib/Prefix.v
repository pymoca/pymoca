(* Lib/Prefix — online decoders and truncated inputs (used by C21).
   An online decoder is a step function over a control state that consumes its input left to
   right and can only succeed by executing its terminator on the last symbol it reads.
   Kernel lemma: on every proper prefix of an accepted input the decoder ends in EOF — it never
   returns a value and never reports a format error.  stdlib only. *)
From Coq Require Import List.
Import ListNotations.

Section Online.
  Variables (byte st val : Type).
  Inductive res := Done (v : val) | More (s : st) | Fail.
  Variable step : st -> byte -> res.     (* what one input symbol does *)

  Inductive out := Value (v : val) (rest : list byte) | EOF | Bad.

  Fixpoint run (s : st) (inp : list byte) : out :=
    match inp with
    | [] => EOF
    | b :: inp' =>
        match step s b with
        | Done v => Value v inp'
        | More s' => run s' inp'
        | Fail => Bad
        end
    end.

  (* the stream was written by an encoder whose output is accepted with nothing left over *)
  Definition accepted (s : st) (inp : list byte) (v : val) := run s inp = Value v [].

  Lemma prefix_eof : forall inp s v pre suf,
    accepted s inp v -> inp = pre ++ suf -> suf <> [] -> run s pre = EOF.
  Proof.
    unfold accepted. intros inp s v pre. revert inp s.
    induction pre as [|b pre IH]; intros inp s suf Hacc -> Hsuf; [reflexivity|].
    cbn in Hacc |- *. destruct (step s b) as [v'|s'|].
    - injection Hacc as _ Hrest. destruct pre; [destruct suf; [contradiction|]|]; discriminate.
    - exact (IH _ s' suf Hacc eq_refl Hsuf).
    - discriminate.
  Qed.

  (* a loader that maps EOF to "invalid cache, recompile" never returns a value and never
     propagates an error on a truncated file *)
  Inductive load_out := Loaded (v : val) | Recompile | Raise.
  Variable route : out -> load_out.
  Hypothesis route_eof : route EOF = Recompile.
  Theorem truncated_recompiles inp s v pre suf :
    accepted s inp v -> inp = pre ++ suf -> suf <> [] -> route (run s pre) = Recompile.
  Proof. intros. erewrite prefix_eof; eauto. Qed.
End Online.

Arguments Done {st val} v.
Arguments More {st val} s.
Arguments Fail {st val}.
Arguments Value {byte val} v rest.
Arguments EOF {byte val}.
Arguments Bad {byte val}.
Arguments run {byte st val} step s inp.
Arguments accepted {byte st val} step s inp v.
Arguments prefix_eof {byte st val} step inp s v pre suf.
