(* ObjGraph — the object graph of pymoca class trees, shared by C06 and C05.
   Definitions only: proofs live in Proofs/C06_deepcopy.v.

   A *world* is the list of live class trees (index 0 = the parsed tree; every
   copy.deepcopy appends one).  A Python Class object is addressed by
   (tree index, path of class names from the root of that tree); the attribute
   `parent` and the per-instance `__deepcopy__` hook are stored as addresses, so object
   identity ("who is whose parent", "whose bound method does a copy carry") is explicit.
   A tree is the finite map path -> node, kept as an association list in an order in
   which every class follows its owner (the order in which deepcopy reaches them). *)
From Coq Require Import List Arith Bool.
Import ListNotations.

Definition key := nat.                    (* class name *)
Definition path := list key.
Definition addr : Type := nat * path.

Definition path_dec : forall a b : path, {a = b} + {a <> b} := list_eq_dec Nat.eq_dec.
Definition addr_dec : forall a b : addr, {a = b} + {a <> b}.
Proof. decide equality. apply path_dec. apply Nat.eq_dec. Defined.
Definition oaddr_dec : forall a b : option addr, {a = b} + {a <> b}.
Proof. decide equality. apply addr_dec. Defined.

(* content of a class that the AST edit API changes: symbol names, number of equations *)
Record cdata := CD { syms : list nat; neqs : nat }.
Definition cdata_dec : forall a b : cdata, {a = b} + {a <> b}.
Proof. decide equality. apply Nat.eq_dec. apply (list_eq_dec Nat.eq_dec). Defined.

Record info := Info {
  dat : cdata;
  par : option addr;     (* Class.parent *)
  hk  : option addr      (* None: no per-instance __deepcopy__ (or one bound to the object itself);
                            Some h: instance attribute bound to the object at h *)
}.

Definition tree := list (path * info).
Definition world := list tree.

Fixpoint assoc {B} (p : path) (t : list (path * B)) : option B :=
  match t with
  | [] => None
  | (q, i) :: t' => if path_dec p q then Some i else assoc p t'
  end.

Definition get (w : world) (a : addr) : option info :=
  match nth_error w (fst a) with Some t => assoc (snd a) t | None => None end.

(* strip p q = Some r  iff  q = p ++ r *)
Fixpoint strip (p q : path) : option path :=
  match p, q with
  | [], _ => Some q
  | x :: p', y :: q' => if Nat.eqb x y then strip p' q' else None
  | _ :: _, [] => None
  end.

(* the classes owned (transitively) by the class at path p, with paths relative to it *)
Fixpoint sub (p : path) (t : tree) : list (path * info) :=
  match t with
  | [] => []
  | (q, i) :: t' => match strip p q with Some r => (r, i) :: sub p t' | None => sub p t' end
  end.

Fixpoint set_nth {A} (n : nat) (x : A) (l : list A) : list A :=
  match n, l with
  | _, [] => []
  | O, _ :: l' => x :: l'
  | S n', y :: l' => y :: set_nth n' x l'
  end.

Definition upd_tree (w : world) (ti : nat) (f : tree -> tree) : world :=
  match nth_error w ti with Some t => set_nth ti (f t) w | None => w end.

(* navigation: everything class lookup can do from a class.
   ast.py:629-693 _find_class: `self.classes[name]` (Down) and `self.parent._find_class` (Up). *)
Inductive step := Up | Down (k : key).

Definition nav1 (w : world) (a : addr) (s : step) : option addr :=
  match s with
  | Up => match get w a with Some i => par i | None => None end
  | Down k => let a' := (fst a, snd a ++ [k]) in
              match get w a' with Some _ => Some a' | None => None end
  end.

Fixpoint nav (w : world) (a : addr) (ss : list step) : option addr :=
  match ss with
  | [] => Some a
  | s :: ss' => match nav1 w a s with Some a' => nav w a' ss' | None => None end
  end.

(* what a lookup path starting at class a gets to see *)
Definition see (w : world) (a : addr) (ss : list step) : option cdata :=
  match nav w a ss with
  | Some a' => match get w a' with Some i => Some (dat i) | None => None end
  | None => None
  end.
