(* Lock.v — SQLite's rollback-journal file-lock protocol, as one decision table.

   Every connection holds one of five levels on the database file.  An operation of a
   connection is decided from its own level and the levels of the OTHER connections on the
   same file:  Grant (with the new level), Block (the busy handler is invoked: the statement
   waits, nothing changes except that a committing writer keeps PENDING), or Busy
   (SQLITE_BUSY is returned at once, without the busy handler: a SHARED holder inside a
   transaction asking for RESERVED while another connection is at RESERVED or above —
   SQLite's deadlock avoidance).

   The table is compared with the real sqlite3 library on every run of ./check C02
   (two real connections, every holder level x operation; vlib/c02.py part (ii)). *)
From Coq Require Import List Bool Arith Lia.
Import ListNotations.

Inductive lvl := Unl | Sh | Res | Pen | Exc.

Definition lvl_rank (l : lvl) : nat :=
  match l with Unl => 0 | Sh => 1 | Res => 2 | Pen => 3 | Exc => 4 end.
Definition geb (l m : lvl) : bool := Nat.leb (lvl_rank m) (lvl_rank l).
Definition is_sh (l : lvl) : bool := match l with Sh => true | _ => false end.

(* operations, as the pager sees them *)
Inductive lop :=
| LRead (intx : bool)      (* a statement that reads; intx: inside BEGIN..COMMIT (the lock is kept) *)
| LWrite (intx : bool)     (* a statement that writes; outside a transaction it also commits *)
| LBeginImm                (* BEGIN IMMEDIATE *)
| LCommit.                 (* COMMIT / end of transaction *)

Inductive lres := Grant (l : lvl) | Block (l : lvl) | Busy.

Definition any_geb (m : lvl) (others : list lvl) : bool := existsb (fun l => geb l m) others.
Definition any_sh (others : list lvl) : bool := existsb is_sh others.

Lemma any_geb_in m oth l : any_geb m oth = false -> In l oth -> geb l m = false.
Proof.
  unfold any_geb. intros H Hin. destruct (geb l m) eqn:E; auto.
  assert (existsb (fun l => geb l m) oth = true) by (apply existsb_exists; eauto). congruence.
Qed.

Definition acquire (mine : lvl) (others : list lvl) (op : lop) : lres :=
  match op with
  | LRead intx =>
      if geb mine Sh then Grant mine
      else if any_geb Pen others then Block mine
      else Grant (if intx then Sh else Unl)
  | LBeginImm =>
      if geb mine Res then Grant mine
      else if any_geb Res others then Block mine
      else Grant Res
  | LWrite intx =>
      if geb mine Res then Grant mine
      else if any_geb Res others then (if is_sh mine then Busy else Block mine)
      else if intx then Grant Res
      else (* autocommit write: RESERVED, then EXCLUSIVE, then release; a failed attempt rolls back *)
        if any_sh others then Block mine else Grant Unl
  | LCommit =>
      if geb mine Res then (if any_sh others then Block Pen else Grant Unl)
      else Grant Unl
  end.

Definition level_after (mine : lvl) (op : lop) : lvl :=
  match op with
  | LRead intx => if geb mine Sh then mine else if intx then Sh else Unl
  | LBeginImm => if geb mine Res then mine else Res
  | LWrite intx => if geb mine Res then mine else if intx then Res else Unl
  | LCommit => Unl
  end.

Lemma acquire_grant mine others op l : acquire mine others op = Grant l -> l = level_after mine op.
Proof.
  destruct op as [intx|intx| |]; unfold acquire, level_after; intros H.
  - destruct (geb mine Sh); [congruence|]. destruct (any_geb Pen others); congruence.
  - destruct (geb mine Res); [congruence|].
    destruct (any_geb Res others); [destruct (is_sh mine); discriminate|].
    destruct intx; [congruence|]. destruct (any_sh others); congruence.
  - destruct (geb mine Res); [congruence|]. destruct (any_geb Res others); congruence.
  - destruct (geb mine Res); [|congruence]. destruct (any_sh others); congruence.
Qed.

Lemma level_after_writer mine op : geb mine Res = true -> op <> LCommit -> level_after mine op = mine.
Proof. destruct op as [ix|ix| |]; cbn; intros H N; rewrite ?H; try congruence. destruct mine; try discriminate H; reflexivity. Qed.

Lemma acquire_block mine others op l :
  acquire mine others op = Block l ->
  (op <> LCommit /\ l = mine /\ geb mine Res = false) \/
  (op = LCommit /\ l = Pen /\ geb mine Res = true /\ any_sh others = true).
Proof.
  destruct op as [intx|intx| |]; unfold acquire; intros H; [left; split; [discriminate|]..|right].
  - destruct mine; cbn in H; try discriminate H.
    destruct (any_geb Pen others); [inversion H; auto|destruct intx; discriminate].
  - destruct (geb mine Res); [discriminate|].
    destruct (any_geb Res others); [destruct (is_sh mine); inversion H; auto|].
    destruct intx; [discriminate|]. destruct (any_sh others); inversion H; auto.
  - destruct (geb mine Res); [discriminate|]. destruct (any_geb Res others); inversion H; auto.
  - destruct (geb mine Res); [|discriminate]. destruct (any_sh others); [|discriminate].
    inversion H. auto.
Qed.

Lemma block_holder mine others op l' : acquire mine others op = Block l' -> exists l, In l others /\ l <> Unl.
Proof.
  (* every test on the others that makes `acquire` answer Block is false of Unl *)
  assert (X : forall f, f Unl = false -> existsb f others = true -> exists l, In l others /\ l <> Unl).
  { intros f F H. apply existsb_exists in H. destruct H as (l & A & B). exists l. split; [exact A|].
    intros ->. congruence. }
  destruct op as [ix|ix| |]; unfold acquire; intros H.
  - destruct (geb mine Sh); [discriminate|]. destruct (any_geb Pen others) eqn:E; [|destruct ix; discriminate].
    exact (X _ eq_refl E).
  - destruct (geb mine Res); [discriminate|]. destruct (any_geb Res others) eqn:E; [exact (X _ eq_refl E)|].
    destruct ix; [discriminate|]. destruct (any_sh others) eqn:E2; [exact (X _ eq_refl E2)|discriminate].
  - destruct (geb mine Res); [discriminate|]. destruct (any_geb Res others) eqn:E; [|discriminate].
    exact (X _ eq_refl E).
  - destruct (geb mine Res); [|discriminate]. destruct (any_sh others) eqn:E; [exact (X _ eq_refl E)|discriminate].
Qed.

Lemma sh_blocked others op l : acquire Sh others op = Block l -> op = LBeginImm \/ op = LWrite false.
Proof.
  destruct op as [ix|[]| |]; cbn; auto; [|destruct (any_geb Res others)|]; discriminate.
Qed.

Lemma acquire_writer mine others op :
  match acquire mine others op with
  | Grant l | Block l => geb l Res = true -> geb mine Res = true \/ any_geb Res others = false
  | Busy => True
  end.
Proof.
  destruct (geb mine Res) eqn:M.
  { destruct (acquire mine others op); auto. }
  destruct op as [intx|intx| |]; unfold acquire; rewrite ?M.
  - destruct (geb mine Sh); [intros; congruence|].
    destruct (any_geb Pen others); [intros; congruence|]. destruct intx; cbn; discriminate.
  - destruct (any_geb Res others); [destruct (is_sh mine); [exact I|intros; congruence]|].
    destruct intx; [auto|]. destruct (any_sh others); [intros; congruence|auto].
  - destruct (any_geb Res others); [intros; congruence|auto].
  - cbn. discriminate.
Qed.

(* not an instance of acquire_writer: an autocommit write is granted at Unl *)
Lemma write_granted mine others ix l :
  acquire mine others (LWrite ix) = Grant l -> geb mine Res = true \/ any_geb Res others = false.
Proof.
  unfold acquire. destruct (geb mine Res); [auto|].
  destruct (any_geb Res others); [destruct (is_sh mine); discriminate|auto].
Qed.

Fixpoint writers (ls : list lvl) : nat :=
  match ls with [] => 0 | l :: ls' => (if geb l Res then 1 else 0) + writers ls' end.

Lemma any_geb_Res_writers others : any_geb Res others = false -> writers others = 0.
Proof.
  induction others as [|l ls IH]; simpl; intros H; [reflexivity|].
  apply orb_false_iff in H. destruct H as [H1 H2]. rewrite H1. simpl. auto.
Qed.

(* a granted or blocked operation never creates a second writer *)
Theorem acquire_mutex mine others op :
  writers (mine :: others) <= 1 ->
  match acquire mine others op with
  | Grant l | Block l => writers (l :: others) <= 1
  | Busy => True
  end.
Proof.
  intros H. pose proof (acquire_writer mine others op) as W.
  assert (G : forall l, (geb l Res = true -> geb mine Res = true \/ any_geb Res others = false) ->
                        writers (l :: others) <= 1).
  { intros l Hl. cbn [writers] in *. destruct (geb l Res); [|lia].
    destruct (Hl eq_refl) as [M|N]; [rewrite M in H; exact H|].
    rewrite (any_geb_Res_writers _ N). lia. }
  destruct (acquire mine others op); auto.
Qed.

(* SQLITE_BUSY without waiting is only ever returned to a SHARED holder that asks to write *)
Theorem busy_only_on_upgrade mine others op :
  acquire mine others op = Busy -> mine = Sh /\ exists intx, op = LWrite intx.
Proof.
  destruct op as [intx|intx| |]; unfold acquire; intros H.
  - destruct (geb mine Sh); [discriminate|]. destruct (any_geb Pen others); discriminate.
  - destruct (geb mine Res); [discriminate|].
    destruct (any_geb Res others).
    + destruct mine; simpl in H; try discriminate. split; eauto.
    + destruct intx; [discriminate|]. destruct (any_sh others); discriminate.
  - destruct (geb mine Res); [discriminate|]. destruct (any_geb Res others); discriminate.
  - destruct (geb mine Res); [|discriminate]. destruct (any_sh others); discriminate.
Qed.
