(* C03 — the SPECIFICATION side: source trees, the printer that follows the grammar levels of the
   Modelica specification (B.2.7), the `resign` normal form, and exact evaluation. *)
From Coq Require Import List Arith ZArith QArith Qcanon Bool.
From PV Require Import Model.C03_prec.
Import ListNotations.
Local Open Scope nat_scope.

(* Grammar levels of the Modelica specification, a larger number binds tighter:
     1 expression (if-then-else)      2 logical_expression (or)     3 logical_term (and)
     4 logical_factor (not)           5 relation                    6 arithmetic_expression (+ - and the unary sign)
     7 term (mul, div)                     8 factor (^)                  9 primary
   0 = an `expression` position (top, inside parentheses, if-parts). *)
Inductive atom := AVar (x : positive) | ANum (n : numtok) | ABool (b : bool) | AStr (raw : string).
Inductive sexpr :=
  | SAtom (a : atom)
  | SPar (e : sexpr)                 (* a redundant pair of parentheses written in the source *)
  | SUn (o : sym) (e : sexpr)        (* o in + - not *)
  | SBin (o : sym) (l r : sexpr)     (* o binary or ^ .^ *)
  | SIf (c t : sexpr) (elifs : list (sexpr * sexpr)) (e : sexpr)   (* if c then t {elseif c' then b'} else e *)
  | SCall (f : fname) (args : list sexpr).                         (* f(e1, ..., en), n >= 1; arguments are expressions *)

Definition is_sign (o : sym) : bool := match o with SPlus | SMinus => true | _ => false end.
Definition is_mul (o : sym) : bool := match o with SMul | SDiv | SEMul | SEDiv => true | _ => false end.
Definition is_pow (o : sym) : bool := match o with SPow | SEPow => true | _ => false end.
Definition is_rel (o : sym) : bool := match o with SLt | SLe | SGt | SGe | SEq | SNe => true | _ => false end.

(* level of a binary operator; 0 = not a binary operator *)
Definition blev (o : sym) : nat :=
  match o with
  | SOr => 2 | SAnd => 3
  | SLt | SLe | SGt | SGe | SEq | SNe => 5
  | SPlus | SMinus | SEPlus | SEMinus => 6
  | SMul | SDiv | SEMul | SEDiv => 7
  | SPow | SEPow => 8
  | SNot => 0
  end.
(* level required of the left / right operand: + - * / and or are left-associative,
   relations and ^ are non-associative *)
Definition lq (o : sym) : nat := if is_rel o then 6 else if is_pow o then 9 else blev o.
Definition rq (o : sym) : nat := if is_pow o then 9 else S (blev o).
(* unary operators: own level and level required of the operand
   (logical_factor = [not] relation;  arithmetic_expression = [add_op] term ...) *)
Definition ulev (o : sym) : nat := match o with SNot => 4 | SPlus | SMinus => 6 | _ => 0 end.
Definition uq (o : sym) : nat := match o with SNot => 5 | SPlus | SMinus => 7 | _ => 0 end.

Definition is_unop (o : sym) : bool := match o with SNot | SPlus | SMinus => true | _ => false end.
Definition is_binop (o : sym) : bool := negb (blev o =? 0).
Fixpoint wf (e : sexpr) : bool :=
  match e with
  | SAtom _ => true
  | SPar e => wf e
  | SUn o e => is_unop o && wf e
  | SBin o l r => is_binop o && wf l && wf r
  | SIf c t el e => wf c && wf t && forallb (fun p => let '(c', b') := p in wf c' && wf b') el && wf e
  | SCall f args => negb (match args with [] => true | _ => false end) && forallb wf args
  end.

Definition atok (a : atom) : tok :=
  match a with AVar x => TId x | ANum n => TNum n | ABool true => TTrue | ABool false => TFalse | AStr s => TStr s end.
Definition paren (ts : list tok) : list tok := TLp :: ts ++ [TRp].
Definition ftoks (f : fname) : list tok := match f with FDer => [TDer; TLp] | FName x => [TId x; TLp] end.
Fixpoint join (l : list (list tok)) : list tok :=      (* comma separated *)
  match l with [] => [] | [x] => x | x :: r => x ++ TComma :: join r end.

(* print e in a position that requires level q: minimal parentheses, plus the SPar ones *)
Fixpoint pr (q : nat) (e : sexpr) : list tok :=
  match e with
  | SAtom a => [atok a]
  | SPar e => paren (pr 0 e)
  | SUn o e =>
      let body := TSym o :: pr (uq o) e in
      if q <=? ulev o then body else paren body
  | SBin o l r =>
      let body := pr (lq o) l ++ TSym o :: pr (rq o) r in
      if q <=? blev o then body else paren body
  | SIf c t el e =>
      let body := TIf :: pr 0 c ++ TThen :: pr 0 t
                  ++ concat (map (fun p => let '(c', b') := p in TElseif :: pr 0 c' ++ TThen :: pr 0 b') el)
                  ++ TElse :: pr 0 e in
      if q <=? 1 then body else paren body
  | SCall f args => ftoks f ++ join (map (pr 0) args) ++ [TRp]      (* a primary: never parenthesised *)
  end.

Definition aexpr (a : atom) : expr :=
  match a with
  | AVar x => Var x | ANum n => Lit (num_value n) | ABool b => Lit (VBool b) | AStr s => Lit (str_value s)
  end.

(* the intended tree: parentheses dropped *)
Fixpoint strip (e : sexpr) : expr :=
  match e with
  | SAtom a => aexpr a
  | SPar e => strip e
  | SUn o e => Un o (strip e)
  | SBin o l r => Bin o (strip l) (strip r)
  | SIf c t el e => IfE (strip c :: map (fun p => let '(c', _) := p in strip c') el)
                        (strip t :: map (fun p => let '(_, b') := p in strip b') el ++ [strip e])
  | SCall f args => Call f (map strip args)
  end.

(* the tree the pymoca grammar builds: a unary sign written directly in front of an unparenthesised
   product  - a * b * c  is attached to the left-most factor  ((-a) * b) * c.
   rs pend e: tree of e with a pending sign `pend` to attach. *)
Definition wrap (pend : option sym) (x : expr) : expr := match pend with Some o => Un o x | None => x end.
Fixpoint rs (pend : option sym) (e : sexpr) : expr :=
  match e with
  | SAtom a => wrap pend (aexpr a)
  | SPar e1 => wrap pend (rs None e1)
  | SUn o e1 => wrap pend (if is_sign o then rs (Some o) e1 else Un o (rs None e1))
  | SBin m l r => if is_mul m then Bin m (rs pend l) (rs None r)
                  else wrap pend (Bin m (rs None l) (rs None r))
  | SIf c t el e => wrap pend (IfE (rs None c :: map (fun p => let '(c', _) := p in rs None c') el)
                                   (rs None t :: map (fun p => let '(_, b') := p in rs None b') el ++ [rs None e]))
  | SCall f args => wrap pend (Call f (map (rs None) args))
  end.
Definition resign (e : sexpr) : expr := rs None e.

Section SexprInd.
  Variable P : sexpr -> Prop.
  Hypothesis HAtom : forall a, P (SAtom a).
  Hypothesis HPar : forall e, P e -> P (SPar e).
  Hypothesis HUn : forall o e, P e -> P (SUn o e).
  Hypothesis HBin : forall o l r, P l -> P r -> P (SBin o l r).
  Hypothesis HIf : forall c t el e, P c -> P t -> Forall (fun p => P (fst p) /\ P (snd p)) el -> P e -> P (SIf c t el e).
  Hypothesis HCall : forall f args, Forall P args -> P (SCall f args).
  Fixpoint sexpr_ind' (e : sexpr) : P e :=
    match e with
    | SAtom a => HAtom a
    | SPar e1 => HPar e1 (sexpr_ind' e1)
    | SUn o e1 => HUn o e1 (sexpr_ind' e1)
    | SBin o l r => HBin o l r (sexpr_ind' l) (sexpr_ind' r)
    | SIf c t el e1 =>
        HIf c t el e1 (sexpr_ind' c) (sexpr_ind' t)
            ((fix go (l : list (sexpr * sexpr)) : Forall (fun p => P (fst p) /\ P (snd p)) l :=
                match l with
                | [] => Forall_nil _
                | p :: l' => Forall_cons p (conj (sexpr_ind' (fst p)) (sexpr_ind' (snd p))) (go l')
                end) el)
            (sexpr_ind' e1)
    | SCall f args =>
        HCall f args ((fix go (l : list sexpr) : Forall P l :=
                         match l with [] => Forall_nil _ | x :: l' => Forall_cons x (sexpr_ind' x) (go l') end) args)
    end.
End SexprInd.

(* T2 side condition: the listener table re-read from parser.py is the one the theorems are stated for *)
Definition ltable_eq_dec : forall a b : ltable, {a = b} + {a <> b}.
Proof. repeat decide equality. Defined.
Definition listener_ok (lt : ltable) : bool := if ltable_eq_dec lt std_lt then true else false.
Lemma listener_ok_eq lt : listener_ok lt = true -> lt = std_lt.
Proof. unfold listener_ok. destruct (ltable_eq_dec lt std_lt); [auto|discriminate]. Qed.

(* exact evaluation: rationals and Booleans; type errors and strings are VErr (strict) *)
Inductive val := VQ (q : Qc) | VB (b : bool) | VErr.

Definition qpow (x y : Qc) : val :=
  match Qden (this y) with
  | xH => match Qnum (this y) with
          | Z0 => VQ 1
          | Zpos p => VQ (Qcpower x (Pos.to_nat p))
          | Zneg p => VQ (/ Qcpower x (Pos.to_nat p))
          end
  | _ => VErr
  end%Qc.

Definition ev_un (o : sym) (v : val) : val :=
  match o, v with
  | SPlus, VQ x => VQ x
  | SMinus, VQ x => VQ (- x)%Qc
  | SNot, VB b => VB (negb b)
  | _, _ => VErr
  end.
Definition ev_bin (o : sym) (a b : val) : val :=
  match a, b with
  | VQ x, VQ y =>
      match o with
      | SPlus | SEPlus => VQ (x + y)%Qc
      | SMinus | SEMinus => VQ (x - y)%Qc
      | SMul | SEMul => VQ (x * y)%Qc
      | SDiv | SEDiv => VQ (x / y)%Qc
      | SPow | SEPow => qpow x y
      | SLt => VB (negb (Qle_bool (this y) (this x)))
      | SLe => VB (Qle_bool (this x) (this y))
      | SGt => VB (negb (Qle_bool (this x) (this y)))
      | SGe => VB (Qle_bool (this y) (this x))
      | SEq => VB (Qeq_bool (this x) (this y))
      | SNe => VB (negb (Qeq_bool (this x) (this y)))
      | _ => VErr
      end
  | VB x, VB y =>
      match o with SAnd => VB (x && y) | SOr => VB (x || y) | _ => VErr end
  | _, _ => VErr
  end.

Section Eval.
  Variable rho : positive -> val.              (* values of the variables *)
  Variable fn : fname -> list val -> val.      (* functions are uninterpreted *)
  Definition ev_lit (v : value) : val :=
    match v with VInt n => VQ (Q2Qc (inject_Z (Z.of_N n))) | VReal q => VQ (Q2Qc q) | VBool b => VB b | VStr _ => VErr end.
  Fixpoint ev_if (cs bs : list val) : val :=
    match cs, bs with
    | VB true :: _, b :: _ => b
    | VB false :: cs', _ :: bs' => ev_if cs' bs'
    | [], [b] => b
    | _, _ => VErr
    end.
  Fixpoint eval (e : expr) : val :=
    match e with
    | Var x => rho x
    | Lit v => ev_lit v
    | Un o a => ev_un o (eval a)
    | Bin o a b => ev_bin o (eval a) (eval b)
    | Call f l => fn f (map eval l)
    | IfE cs bs => ev_if (map eval cs) (map eval bs)
    end.
End Eval.
