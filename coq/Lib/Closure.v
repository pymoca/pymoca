(* Merge-by-relabelling over gmap K (gset K) computes the equivalence closure of a list of pairs. *)
From stdpp Require Import gmap.

Section Closure.
  Context `{Countable K}.
  Notation cmap := (gmap K (gset K)).
  Definition cls (m : cmap) (k : K) : gset K := default {[k]} (m !! k).
  Definition relabel (A : gset K) (m : cmap) : cmap :=
    set_fold (fun v acc => <[v := A]> acc) m A.
  Definition merge (m : cmap) (a b : K) : cmap := relabel (cls m a ∪ cls m b) m.

  Lemma set_fold_lookup {V} (f : K → gmap K V → gmap K V) (c : option V) (m : gmap K V) (Y : gset K) k :
    (∀ v acc, f v acc !! k = if decide (k = v) then c else acc !! k) →
    set_fold f m Y !! k = if decide (k ∈ Y) then c else m !! k.
  Proof.
    intros Hf.
    pose (P := fun (r : gmap K V) (X : gset K) => r !! k = if decide (k ∈ X) then c else m !! k).
    apply (set_fold_ind_L P); unfold P.
    - rewrite decide_False by apply not_elem_of_empty. done.
    - intros x X r _ IH. rewrite Hf. destruct (decide (k = x)) as [->|Hne].
      + rewrite decide_True by apply elem_of_union_l, elem_of_singleton_2, eq_refl. done.
      + rewrite IH. apply decide_ext. rewrite elem_of_union, elem_of_singleton. tauto.
  Qed.

  Lemma relabel_lookup A m k :
    relabel A m !! k = if decide (k ∈ A) then Some A else m !! k.
  Proof.
    apply set_fold_lookup. intros v acc. case_decide as E.
    - rewrite E. apply lookup_insert.
    - by apply lookup_insert_ne.
  Qed.

  Lemma merge_dom m a b : dom (merge m a b) = cls m a ∪ cls m b ∪ dom m.
  Proof.
    apply set_eq. intros k. unfold merge. rewrite elem_of_union, !elem_of_dom, relabel_lookup.
    case_decide; [|tauto]. split; eauto.
  Qed.

  Lemma cls_empty k : cls ∅ k = {[k]}.
  Proof. unfold cls. by rewrite lookup_empty. Qed.

  Lemma cls_relabel A m k :
    cls (relabel A m) k = if decide (k ∈ A) then A else cls m k.
  Proof. unfold cls. rewrite relabel_lookup. by case_decide. Qed.

  Definition inv (m : cmap) : Prop :=
    (∀ k, k ∈ cls m k) ∧ (∀ k v, v ∈ cls m k → cls m v = cls m k).

  Lemma inv_empty : inv ∅.
  Proof.
    split; intros k; [|intros v]; rewrite !cls_empty; [by apply elem_of_singleton|].
    by intros ->%elem_of_singleton.
  Qed.

  Lemma cls_merge m a b k :
    cls (merge m a b) k = if decide (k ∈ cls m a ∪ cls m b) then cls m a ∪ cls m b else cls m k.
  Proof. apply cls_relabel. Qed.

  Lemma inv_closed m k v x : inv m → v ∈ cls m k → v ∈ cls m x → k ∈ cls m x.
  Proof. intros [Hr Hc] Hk Hx. rewrite <- (Hc x v Hx), (Hc k v Hk). apply Hr. Qed.

  Lemma inv_mem_sym m k v : inv m → v ∈ cls m k → k ∈ cls m v.
  Proof. intros Hi Hv. apply (inv_closed m k v v Hi Hv), Hi. Qed.

  Lemma inv_closed_union m k v a b : inv m →
    v ∈ cls m k → v ∈ cls m a ∪ cls m b → k ∈ cls m a ∪ cls m b.
  Proof.
    intros Hi Hk [Hv|Hv]%elem_of_union.
    - by apply elem_of_union_l, (inv_closed m k v).
    - by apply elem_of_union_r, (inv_closed m k v).
  Qed.

  Lemma merge_inv m a b : inv m → inv (merge m a b).
  Proof.
    intros Hi. pose proof Hi as [Hr Hc]. split.
    - intros k. rewrite cls_merge. case_decide; [done|apply Hr].
    - intros k v. rewrite !cls_merge.
      case_decide as Hk; intros Hv.
      + by rewrite decide_True.
      + case_decide as Hv'; [|by apply Hc].
        destruct Hk. by apply (inv_closed_union m k v).
  Qed.

  Lemma merge_mono m a b k v : inv m → v ∈ cls m k → v ∈ cls (merge m a b) k.
  Proof.
    intros Hi Hv. rewrite cls_merge. case_decide as Hk; [|done].
    apply (inv_closed_union m v k); [done| |done]. by apply inv_mem_sym.
  Qed.

  Lemma merge_joins m a b : inv m → b ∈ cls (merge m a b) a.
  Proof.
    intros Hi. rewrite cls_merge.
    rewrite decide_True by apply elem_of_union_l, Hi. apply elem_of_union_r, Hi.
  Qed.

  Inductive eqv (P : list (K * K)) : K → K → Prop :=
  | eqv_pair a b : (a, b) ∈ P → eqv P a b
  | eqv_refl a : eqv P a a
  | eqv_sym a b : eqv P a b → eqv P b a
  | eqv_trans a b c : eqv P a b → eqv P b c → eqv P a c.

  Definition run (P : list (K * K)) : cmap := fold_left (fun m '(a, b) => merge m a b) P ∅.

  Lemma eqv_mono P Q a b : P ⊆ Q → eqv P a b → eqv Q a b.
  Proof. intros HPQ. induction 1; eauto using eqv. Qed.

  Lemma run_snoc P a b : run (P ++ [(a, b)]) = merge (run P) a b.
  Proof. unfold run. by rewrite fold_left_app. Qed.

  Lemma run_inv P : inv (run P).
  Proof.
    induction P as [|[a b] P IH] using rev_ind; [apply inv_empty|].
    rewrite run_snoc. by apply merge_inv.
  Qed.

  Lemma eqv_snoc P a b x y : eqv P x y → eqv (P ++ [(a, b)]) x y.
  Proof. apply eqv_mono. intros p Hp. apply elem_of_app. by left. Qed.

  Lemma run_pair P a b : (a, b) ∈ P → b ∈ cls (run P) a.
  Proof.
    induction P as [|[c d] P IH] using rev_ind; [by intros ?%elem_of_nil|].
    rewrite run_snoc. intros [Hab|[= -> ->]%elem_of_list_singleton]%elem_of_app.
    - apply merge_mono; [apply run_inv|by apply IH].
    - apply merge_joins, run_inv.
  Qed.

  (* ⊆ by induction on the history; ⊇ because membership in a class is an equivalence (run_inv)
     that holds of every pair of the history (run_pair) *)
  Theorem run_closure P k v : v ∈ cls (run P) k ↔ eqv P k v.
  Proof.
    split.
    - revert k v. induction P as [|[a b] P IH] using rev_ind; intros k v.
      + unfold run. cbn. rewrite cls_empty. intros ->%elem_of_singleton. apply eqv_refl.
      + rewrite run_snoc, cls_merge.
        assert (∀ x, x ∈ cls (run P) a ∪ cls (run P) b → eqv (P ++ [(a, b)]) a x) as Hax.
        { intros x [Hx|Hx]%elem_of_union.
          - by apply eqv_snoc, IH.
          - apply (eqv_trans _ _ b); [|by apply eqv_snoc, IH].
            apply eqv_pair, elem_of_app. right. by apply elem_of_list_singleton. }
        case_decide as Hk; intros Hv.
        * eapply eqv_trans; [apply eqv_sym, Hax, Hk|apply Hax, Hv].
        * by apply eqv_snoc, IH.
    - pose proof (run_inv P) as Hi.
      induction 1 as [x y Hxy|x|x y _ IH|x y z _ IH1 _ IH2].
      + by apply run_pair.
      + apply Hi.
      + by apply inv_mem_sym.
      + apply (inv_closed (run P) z y x Hi); [by apply inv_mem_sym|done].
  Qed.
End Closure.
