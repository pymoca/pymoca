(* C13 — variable metadata reports the declared attributes.
   Property theorems; proofs in Proofs/C13_metadata.v and Proofs/C13_poly.v (examples are evaluated here). *)
From Coq Require Import QArith Qcanon List Bool ZArith.
From PV Require Import Model.C13_metadata Model.C13_poly Proofs.C13_metadata Proofs.C13_poly.
Import ListNotations.
Local Open Scope Qc_scope.

(* Unspecified attributes: every row of a variable without any attribute is
   (value NaN, min -inf, max +inf, start 0, fixed false(0), nominal 0), in the column order
   of CASADI_ATTRIBUTES, for every type, every size, every parameter vector, both branches *)
Theorem C13_defaults (t : vtype) (n : nat) (p : list Qc) (rb : bool) :
  metadata rb [[Var t n (fun _ => DNone)]] p =
  Some [repeat_ [NaN; NegInf; PosInf; Fin 0; Fin 0; Fin 0] n].
Proof. exact (defaults_rows t n p rb). Qed.
Print Assumptions C13_defaults.

(* The metadata function: for every model (any number of categories, variables, sizes), every
   parameter valuation p at which no attribute expression divides by zero, and whichever
   branch CasADi's affinity test selected (rb) - provided the rebuild branch is only taken
   when all cells are in the syntactic affine class - every entry equals the declared
   attribute expression evaluated at p (spec_metadata: defaults for the unspecified ones,
   scalars broadcast over arrays, array literals element-wise). *)
Theorem C13_values (rb : bool) (M : model) (p : list Qc) :
  model_wf M = true -> safe_ok p M = true -> (rb = true -> affine_ok M = true) ->
  metadata rb M p = Some (spec_metadata p M).
Proof. exact (metadata_spec rb M p). Qed.
Print Assumptions C13_values.

(* The same on the Variable objects (attributes evaluated at p, scalars broadcast) *)
Theorem C13_variable_attributes (M : model) (p : list Qc) :
  model_wf M = true -> var_attrs M p = Some (spec_metadata p M).
Proof. exact (direct_spec p M). Qed.
Print Assumptions C13_variable_attributes.

(* The affine rebuild: for the syntactic class  c | p_i | a+a | a-a | c*a | a*c | a/c | -a
   (c any parameter-free subexpression),  J(0)*p + f(0) = f(p)  for every p *)
Theorem C13_affine_rebuild (e : aexp) (p : list Qc) :
  affine e = true -> safe p e = true -> rebuild e p = eval p e.
Proof. exact (affine_rebuild e p). Qed.
Print Assumptions C13_affine_rebuild.

(* Integer and Boolean variables keep their Python types: an Integer literal on an Integer
   variable stays int, a Boolean literal on an Integer/Boolean variable stays bool, every
   scalar literal on a Real variable becomes float; and coercion never changes the value of a
   well-typed literal *)
Theorem C13_types :
  (forall z, lit_tag (coerce TInt (LInt z)) = GInt) /\
  (forall t b, t <> TReal -> lit_tag (coerce t (LBool b)) = GBool) /\
  (forall l, lit_tag (coerce TReal l) = GFloat) /\
  (forall t l, well_typed t l = true -> lit_val (coerce t l) = lit_val l) /\
  (forall v a l, vdecl v a = DLit l -> attr_tag v a = lit_tag (coerce (vt v) l)).
Proof.
  exact (conj coerce_tag_int (conj coerce_tag_bool (conj coerce_tag_real
        (conj coerce_value attr_tag_literal)))).
Qed.
Print Assumptions C13_types.

(* _substitute_metadata: eliminating parameters (entry i of the old parameter vector := nth i sg, an
   expression over the new one) commutes with evaluation *)
Theorem C13_substitute (sg : list aexp) (e : aexp) (p : list Qc) :
  eval p (subst sg e) = eval (map (eval p) sg) e.
Proof. exact (subst_eval sg e p). Qed.
Print Assumptions C13_substitute.

(* C13_values after ANY sequence of parameter-eliminating simplify steps (replace_parameter_values,
   replace_parameter_expressions, ...; including the conversion of attributes that became constant
   into Python numbers of the variable's type): the metadata function of the simplified model at
   the remaining parameters p reports the ORIGINALLY declared expressions at the corresponding
   original valuation env_back steps p.  steps_ok: an Integer attribute that becomes constant has
   an integral value. *)
Theorem C13_values_steps (rb : bool) (steps : list (list aexp)) (M : model) (p : list Qc) :
  steps_ok steps M = true ->
  model_wf (run steps M) = true -> safe_ok p (run steps M) = true ->
  (rb = true -> affine_ok (run steps M) = true) ->
  metadata rb (run steps M) p = Some (spec_metadata (env_back steps p) M).
Proof. intros S W F A. rewrite <- (spec_run steps M p S). exact (metadata_spec rb _ p W F A). Qed.
Print Assumptions C13_values_steps.

(* vector / matrix valued attribute expressions (start = pa, 2*pa, 3*P, P + fill(p,2,3)): the element
   expressions the model puts into the matrix cells (and, for _expand_vectors, on element k) evaluate
   to the entries of the vector value; C13_values / C13_values_steps cover DVec / DVecEl declarations
   with veval as their specification *)
Theorem C13_vector_elements (p : list Qc) (v : vexp) :
  map (eval p) (velems v) = veval p v.
Proof. exact (velems_eval p v). Qed.
Print Assumptions C13_vector_elements.

(* The affinity test on the polynomial fragment (constants, parameters, + - * neg, integer powers,
   division by parameter-free terms), expanded into terms c * p_x1 ... p_xk without combining like
   terms (CasADi's structural view).  "No second structural partial derivative has a term" (the
   code's `jacobian(jacobian(expr, in_var), in_var).is_zero()`)  <->  every term has total degree
   <= 1  <->  the expansion is in the syntactic affine class; every member of the syntactic affine
   class that has an expansion passes (a parameter-free if / not / comparison has none and is rejected, so
   C13_values_test does not contain C13_values); the expansion denotes the expression (the `safe` hypothesis
   of that part is not needed);
   and when the test passes, the affine rebuild the code performs - J(0)*p + f(0) of the expression
   itself - reproduces the declared expression at every parameter valuation (the derivative d0 used by
   the rebuild is proved to be the derivative of the expansion).
   PARTIAL: (a) outside the polynomial fragment (pnorm e = None: division by a parameter-dependent
   term, if-expressions, functions) nothing is proved - there the branch taken stays an observed input
   of the model (rb) with the contract `rb = true -> affine_ok M`; (b) the allowed-operation set is
   not modelled (it only makes the code reject more); (c) that CasADi's sparsity propagation computes
   exactly this structural Hessian is assumed. *)
Theorem C13_test_sound_partial :
  (forall P, hess_zero P <-> deg_le1 P = true) /\
  (forall P, deg_le1 P = affine (to_aexp P)) /\
  (forall e P, pnorm e = Some P -> affine e = true -> hess_zero P) /\
  (forall e P p, pnorm e = Some P -> safe p e = true -> eval p e = peval p P) /\
  (forall e P p, pnorm e = Some P -> safe p e = true -> hess_zero P -> rebuild e p = eval p e).
Proof.
  split; [exact hess_zero_iff_degree|]. split; [exact degree_iff_affine|]. split.
  - intros e P N A. apply hess_zero_iff_degree. exact (proj2 (pnorm_degree e P N) A).
  - split; [exact (fun e P p N _ => pnorm_eval p e P N)|exact test_sound_rebuild].
Qed.
Print Assumptions C13_test_sound_partial.

(* C13_values with the MODELLED test as the branch contract: if the rebuild branch is only taken when
   every symbolic cell is polynomial with a structurally zero Hessian, the metadata function reports
   the declared attributes *)
Theorem C13_values_test (rb : bool) (M : model) (p : list Qc) :
  model_wf M = true -> safe_ok p M = true -> (rb = true -> test_ok M = true) ->
  metadata rb M p = Some (spec_metadata p M).
Proof. exact (metadata_branch cell_test rb M p (cell_val_rb_test p)). Qed.
Print Assumptions C13_values_test.

(* the two seeded replacements of the Hessian test are unsound: p*q*r passes the numeric test at
   p = 0 (C13/m1), p*q passes the per-parameter (block-diagonal) test (C19/m1); both fail the
   structural test and their affine rebuild differs from the declared value at p = (1,1,1) *)
Theorem C13_numeric_test_refuted :
  exists e P p, pnorm e = Some P /\ hess_num0 P /\ ~ hess_zero P /\ rebuild e p <> eval p e.
Proof.
  exists pqr, [(1 * 1 * 1, [0; 1; 2]%nat)], ones3. split; [reflexivity|]. split; [|split].
  - intros i j. destruct j as [|[|[|j]]]; destruct i as [|[|[|i]]]; vm_compute; reflexivity.
  - intros H. specialize (H 1%nat 0%nat). vm_compute in H. discriminate H.
  - apply Qc_neq_of_bool. vm_compute. reflexivity.
Qed.
Print Assumptions C13_numeric_test_refuted.

Theorem C13_blockdiag_test_refuted :
  exists e P p, pnorm e = Some P /\ hess_diag P /\ ~ hess_zero P /\ rebuild e p <> eval p e.
Proof.
  exists pq, [(1 * 1, [0; 1]%nat)], ones3. split; [reflexivity|]. split; [|split].
  - intros i. destruct i as [|[|i]]; vm_compute; reflexivity.
  - intros H. specialize (H 1%nat 0%nat). vm_compute in H. discriminate H.
  - apply Qc_neq_of_bool. vm_compute. reflexivity.
Qed.
Print Assumptions C13_blockdiag_test_refuted.

(* non-vacuity: Real y[2](each min = -p1, max = {p0/2 + 1, 3}, start = 2) and Integer i(max = 7)
   with two parameters, rebuilt branch, at p = (3, 1/2) *)
Definition ex_p0 : aexp := Par 0.
Definition ex_y : var :=
  Var TReal 2 (fun a => match a with
    | AMin => DExp (Neg (Par 1))
    | AMax => DElems [EExp (Add (Div (Par 0) (Cst (Q2Qc 2))) (Cst 1)); ELit (LInt 3)]
    | AStart => DLit (LInt 2)
    | _ => DNone end).
Definition ex_i : var := Var TInt 1 (fun a => match a with AMax => DLit (LInt 7) | _ => DNone end).
Definition ex_M : model := [[]; [ex_y; ex_i]; []; []; []].
Definition ex_p : list Qc := [Q2Qc 3; Q2Qc (1 # 2)].

Example C13_example :
  model_wf ex_M = true /\ safe_ok ex_p ex_M = true /\ affine_ok ex_M = true /\
  metadata true ex_M ex_p =
  Some [[]; [[NaN; Fin (Q2Qc (-1 # 2)); Fin (Q2Qc (5 # 2)); Fin (Q2Qc 2); Fin 0; Fin 0];
             [NaN; Fin (Q2Qc (-1 # 2)); Fin (Q2Qc 3); Fin (Q2Qc 2); Fin 0; Fin 0];
             [NaN; NegInf; Fin (Q2Qc 7); Fin 0; Fin 0; Fin 0]]; []; []; []] /\
  attr_tag ex_i AMax = GInt /\ attr_tag ex_y AStart = GFloat.
Proof.
  assert (W : model_wf ex_M = true) by (vm_compute; reflexivity).
  assert (S : safe_ok ex_p ex_M = true) by (vm_compute; reflexivity).
  assert (A : affine_ok ex_M = true) by (vm_compute; reflexivity).
  split; [exact W|]. split; [exact S|]. split; [exact A|]. split; [|split; reflexivity].
  rewrite (metadata_spec true ex_M ex_p W S (fun _ => A)). vm_compute.
  repeat f_equal; apply Qc_is_canon; reflexivity.
Qed.
Print Assumptions C13_example.

From PV Require Import Model.C13_const.

(* Variable level: attributes that mention constants evaluate to the declared expression at the parameters
   and at `cvals cs p` for the constants (instance of C13_variable_attributes on the extended valuation; no
   theorem says what cvals computes) *)
Theorem C13_variable_attributes_constants (M : model) (cs : list aexp) (p : list Qc) :
  model_wf M = true -> var_attrs_c M cs p = Some (spec_metadata (p ++ cvals cs p) M).
Proof. intros W. exact (direct_spec (p ++ cvals cs p) M W). Qed.
Print Assumptions C13_variable_attributes_constants.

(* Function level, carve-out "no attribute mentions a constant" (exactly the complement of the recorded
   finding's class): the metadata function exists and reports the declared attributes *)
Theorem C13_values_no_constants (rb : bool) (n : nat) (M : model) (p : list Qc) :
  no_constants n M = true ->
  model_wf M = true -> safe_ok p M = true -> (rb = true -> affine_ok M = true) ->
  metadata_fn rb n M p = Some (spec_metadata p M).
Proof. intros C W S A. unfold metadata_fn. rewrite C. exact (metadata_spec rb M p W S A). Qed.
Print Assumptions C13_values_no_constants.

(* the recorded finding: `constant Real c = 2; Real x(max = c);` (no parameter, c = symbol 0) is a
   well-formed model whose Variable-level max is 2 but whose metadata function cannot be built *)
Definition cx_M : model :=
  [[]; [Var TReal 1 (fun a => match a with AMax => DExp (Par 0) | _ => DNone end)]; []; [];
   [Var TReal 1 (fun a => match a with AValue => DLit (LReal (Q2Qc 2)) | _ => DNone end)]].
Theorem C13_metadata_function_constants_refuted :
  exists (M : model) (cs : list aexp) (n : nat),
    model_wf M = true /\
    var_attrs_c M cs [] = Some (spec_metadata (cvals cs []) M) /\
    (forall rb, metadata_fn rb n M [] = None).
Proof.
  exists cx_M, [Cst (Q2Qc 2)], 0%nat. split; [reflexivity|]. split.
  - exact (direct_spec _ cx_M eq_refl).
  - intros rb. reflexivity.
Qed.
Print Assumptions C13_metadata_function_constants_refuted.
