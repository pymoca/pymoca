(* C10 — generated CasADi model classifies every variable exactly once.
   Property theorems; lemmas in Proofs/C10_classify.v.  All statements are over
   arbitrary flat classes: any number of symbols, arbitrary names, orders (ties allowed),
   prefix lists (any multiset of the 8 keywords, grammatical or not), types, and arbitrary
   expression trees. *)
From Coq Require Import List Arith Bool PeanoNat Permutation Sorted.
From PV Require Import Model.C10_classify Proofs.C10_classify.
Import ListNotations.

(* Exactly one category.  The seven lists together are a permutation of the non-empty
   annotated symbols; a symbol is in list c iff c is the category the chain gives it; with
   distinct flat names no name occurs twice anywhere in the seven lists. *)
Theorem C10_partition (fc : flat) :
  Permutation (flat_map (fun c => sel c fc) all_cats) (filter nonempty (annotate fc)) /\
  (forall s c, In s (sel c fc) <-> In s (annotate fc) /\ s_empty s = false /\ scat s = c) /\
  (NoDup (map s_name (f_syms fc)) ->
   NoDup (map s_name (flat_map (fun c => sel c fc) all_cats))).
Proof.
  split; [apply sel_partition|split].
  - intros s c. apply sel_In.
  - intros ND. rewrite <- annotate_names in ND.
    eapply Permutation_NoDup; [apply Permutation_sym, Permutation_map, sel_partition|].
    apply NoDup_map_filter, ND.
Qed.
Print Assumptions C10_partition.

(* Precedence constant > parameter > input > state > algebraic, String constants/parameters
   in the string categories; for every prefix list and type (not a finite table). *)
Theorem C10_precedence (p : list kw) (t : ty) :
  (In Kconstant p -> cat_of p t = if is_str t then CStrConst else CConst) /\
  (~ In Kconstant p -> In Kparameter p -> cat_of p t = if is_str t then CStrParam else CParam) /\
  (~ In Kconstant p -> ~ In Kparameter p -> In Kinput p -> cat_of p t = CInput) /\
  (~ In Kconstant p -> ~ In Kparameter p -> ~ In Kinput p -> In Kstate p -> cat_of p t = CState) /\
  (~ In Kconstant p -> ~ In Kparameter p -> ~ In Kinput p -> ~ In Kstate p -> cat_of p t = CAlg).
Proof.
  unfold cat_of. repeat split.
  - intros Hc%has_In. rewrite Hc. reflexivity.
  - intros Hc%has_false Hp%has_In. rewrite Hc, Hp. reflexivity.
  - intros Hc%has_false Hp%has_false Hi%has_In. rewrite Hc, Hp, Hi. reflexivity.
  - intros Hc%has_false Hp%has_false Hi%has_false Hs%has_In. rewrite Hc, Hp, Hi, Hs. reflexivity.
  - intros Hc%has_false Hp%has_false Hi%has_false Hs%has_false. rewrite Hc, Hp, Hi, Hs. reflexivity.
Qed.
Print Assumptions C10_precedence.

(* Declaration order within each category: every list is the sorted symbol list with elements
   removed, hence ascending in `order`; the sorted list is a permutation of the symbol table,
   ascending, and stable (symbols of equal order keep their flat-class order). *)
Theorem C10_order (fc : flat) :
  (forall c, sel c fc = filter (fun s => cat_eqb (scat s) c && nonempty s) (sorted_syms fc)) /\
  (forall c, StronglySorted ord_le (sel c fc)) /\
  Permutation (sorted_syms fc) (annotate fc) /\
  StronglySorted ord_le (sorted_syms fc) /\
  (forall k, filter (at_order k) (sorted_syms fc) = filter (at_order k) (annotate fc)).
Proof.
  repeat split.
  - intros c. apply filter_andb.
  - intros c. apply sel_sorted.
  - apply sort_perm.
  - apply sort_sorted.
  - intros k. apply sort_stable.
Qed.
Print Assumptions C10_order.

(* States: a declared symbol ends up in `states` iff it is non-empty, not constant / parameter /
   input, and its name occurs below some der(...) node of an equation, initial equation or
   attribute expression (`under`, an inductive reading independent of the in_der counter), or
   it carried the state prefix already.  Exactly one derivative per state, position-wise. *)
Theorem C10_states (fc : flat) :
  (forall s0, In s0 (f_syms fc) ->
     let s := annotate1 (all_der_refs fc) s0 in
     In s (m_states fc) <->
       s_empty s0 = false /\ ~ In Kconstant (s_pref s0) /\ ~ In Kparameter (s_pref s0) /\
       ~ In Kinput (s_pref s0) /\
       (In Kstate (s_pref s0) \/ exists e, In e (f_exprs fc) /\ under (s_name s0) false e)) /\
  m_der_states fc = map (fun s => Der (s_name s)) (m_states fc) /\
  length (m_der_states fc) = length (m_states fc) /\
  (forall i s, nth_error (m_states fc) i = Some s ->
               nth_error (m_der_states fc) i = Some (Der (s_name s))).
Proof.
  split; [|split; [reflexivity|split]].
  - intros s0 Hin. apply state_iff, Hin.
  - apply map_length.
  - intros i s H. unfold m_der_states. rewrite nth_error_map, H. reflexivity.
Qed.
Print Assumptions C10_states.

(* Outputs: exactly the output-prefixed members of states then alg_states, in that order. *)
Theorem C10_outputs (fc : flat) :
  m_outputs fc = map s_name (filter (fun s => has Koutput (s_pref s)) (m_states fc)) ++
                 map s_name (filter (fun s => has Koutput (s_pref s)) (m_alg fc)) /\
  (forall n, In n (m_outputs fc) <->
     exists s, (In s (m_states fc) \/ In s (m_alg fc)) /\ In Koutput (s_pref s) /\ s_name s = n).
Proof.
  split; [|apply outputs_In].
  unfold m_outputs. rewrite filter_app, map_app. reflexivity.
Qed.
Print Assumptions C10_outputs.

(* The generated model IS these lists — under the hypothesis that carves out exactly the
   recorded defect class (known finding output-string-variable): no non-empty String variable
   with the output prefix that is neither constant, parameter nor input. *)
Theorem C10_model_produced (fc : flat) :
  (forall s, In s (f_syms fc) -> ~ bad_sym s) -> generate fc = Some (lists fc).
Proof. exact (generate_some fc). Qed.
Print Assumptions C10_model_produced.

(* ... and the full statement ("every generated flat model mixing prefixes and types gets a
   Model whose output list ...") is false of the faithful model: for exactly that class no
   Model is produced (the real code raises AttributeError). *)
Theorem C10_outputs_refuted :
  exists fc, NoDup (map s_name (f_syms fc)) /\ generate fc = None.
Proof.
  exists (mkFlat [mkSym 1 0 [Koutput] TString false] []).
  split; [repeat constructor; simpl; tauto | vm_compute; reflexivity].
Qed.
Print Assumptions C10_outputs_refuted.

Theorem C10_no_model_iff (fc : flat) :
  generate fc = None <-> exists s, In s (f_syms fc) /\ bad_sym s.
Proof. exact (generate_none_iff fc). Qed.
Print Assumptions C10_no_model_iff.

(* non-vacuity: a concrete flat class with every category inhabited, an order tie, an empty
   array, der inside an expression and in a nested call, an input and a parameter under der;
   it satisfies the carving hypothesis and the lists are as expected *)
Example C10_example :
  let fc := mkFlat
    [ mkSym 1 5 [Koutput] TReal false;           (* output Real x      -> state (der(x*y))   *)
      mkSym 2 5 [] TReal false;                   (* Real y, same order -> state              *)
      mkSym 3 1 [Kparameter; Kinput] TReal false; (* parameter input    -> parameter          *)
      mkSym 4 2 [Kinput] TReal false;             (* input u, der(u)    -> input              *)
      mkSym 5 0 [Kconstant] TString false;        (* constant String    -> string constant    *)
      mkSym 6 3 [Kparameter] TString false;       (* parameter String   -> string parameter   *)
      mkSym 7 9 [Kconstant] TInteger false;       (* constant Integer   -> constant           *)
      mkSym 8 4 [Koutput; Kdiscrete] TBoolean false; (* discrete output -> algebraic, output  *)
      mkSym 9 7 [] TReal true;                    (* Real e[0]          -> dropped            *)
      mkSym 10 6 [Kinput; Koutput] TString false ](* String input      -> input, no error     *)
    [ EOp false [EOp true [EOp false [ERef 1; ERef 2]]; ERef 8];
      EOp false [ERef 8; EOp false [ELit; EOp true [ERef 4; ERef 3]]] ] in
  (forall s, In s (f_syms fc) -> ~ bad_sym s) /\
  generate fc = Some (mkObs [1; 2] [Der 1; Der 2] [8] [4; 10] [3] [7] [6] [5] [1; 8]).
Proof.
  intros fc.
  assert (G : generate fc = Some (mkObs [1; 2] [Der 1; Der 2] [8] [4; 10] [3] [7] [6] [5] [1; 8]))
    by (vm_compute; reflexivity).
  split; [|exact G].
  intros s H B. rewrite (generate_none fc) in G by (exists s; split; assumption). discriminate G.
Qed.
Print Assumptions C10_example.
