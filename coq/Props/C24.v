(* C24 — SymPy backend emits code with the flat model's meaning.
   Property theorems only; lemmas in Proofs/C24_sympy.v (which also defines [embed], [need], [need_eq],
   [cleanb], [no_shadow]), the model in Model/C24_sympy.v. *)
From Coq Require Import List String Ascii Bool Arith QArith Qcanon.
From PV Require Import Model.C24_sympy Proofs.C24_sympy.
Import ListNotations.
Close Scope Q_scope.
Close Scope Qc_scope.
Open Scope nat_scope.
Open Scope list_scope.

(* MEANING.  For every list of reserved names B that does not contain "time", every flat equation
   l = r over + - * / ^, unary signs, der, calls, numbers, references and time, every Python
   environment E (values of identifiers, of their derivatives, of self.t), every interpretation
   of ^ and of the called functions, and every fuel n >= need_eq l r (linear in the size):
   (1) the emitted line print_eq (the format strings of generator.py, character level) is
       exactly the spelling of the token list print_tok_eq;
   (2) reading those tokens with Python's grammar/precedence gives the Python expression
       (embed l) - (embed r) -- nothing is re-associated or captured by a neighbouring operator;
   (3) its value under E is lhs - rhs of the flat equation under the Modelica environment that
       E induces through the name mangling (flat name n has the value of identifier sym_name n);
       values are dual numbers (value, time derivative), so der(e) of an ARBITRARY expression e
       (der(m*v), der(x/y), ...) means the derivative by the sum/product/quotient rules on both
       sides and the printed (e).diff(self.t) must apply to the whole of e.
   The hypothesis "no component called time is declared" is the [false] passed to [pull]:
   see C24_time_refuted.  Not covered: the step from characters to tokens (Python's tokenizer). *)
Theorem C24_meaning
  (powf : dual -> dual -> option dual) (callf : str -> list dual -> option dual)
  (B : list str) (E : penv) (l r : expr) (n : nat) :
  mem TIME B = false -> need_eq l r <= n ->
  render (print_tok_eq B l r) = print_eq B l r /\
  py_parse n (print_tok_eq B l r) = Some (PBin Sub (embed B l) (embed B r)) /\
  option_map fst (obind (py_parse n (print_tok_eq B l r)) (peval powf callf E))
  = m_eval_eq powf callf (pull B E false) l r.
Proof.
  intros HB Hn. split; [apply render_print_eq|]. split; [now apply py_parse_eq|].
  rewrite (py_parse_eq B l r n Hn). cbn [obind peval].
  rewrite !(sem_embed powf callf B E) by exact HB. unfold m_eval_eq.
  destruct (m_eval powf callf (pull B E false) l) as [x|]; [|reflexivity].
  destruct (m_eval powf callf (pull B E false) r) as [y|]; reflexivity.
Qed.
Print Assumptions C24_meaning.

(* the same for a single expression (operator precedence respected at every nesting depth) *)
Theorem C24_meaning_expr
  (powf : dual -> dual -> option dual) (callf : str -> list dual -> option dual)
  (B : list str) (E : penv) (e : expr) (n : nat) :
  mem TIME B = false -> need e + 1 <= n ->
  render (print_tok B e) = print B e /\
  obind (py_parse n (print_tok B e)) (peval powf callf E) = m_eval powf callf (pull B E false) e.
Proof.
  intros HB Hn. split; [apply render_print|].
  rewrite (py_parse_expr B e n Hn). cbn [obind]. now apply sem_embed.
Qed.
Print Assumptions C24_meaning_expr.

(* LISTS.  Membership in the six emitted lists is exactly the flat classification by prefixes;
   v = the prefix-less symbols plus the outputs that are not states. *)
Theorem C24_lists (syms : list symb) (s : symb) :
  let L := classify syms in
  (In s (l_x L) <-> In s syms /\ In (s_ "state") (snd s)) /\
  (In s (l_u L) <-> In s syms /\ In (s_ "input") (snd s)) /\
  (In s (l_y L) <-> In s syms /\ In (s_ "output") (snd s)) /\
  (In s (l_c L) <-> In s syms /\ In (s_ "constant") (snd s)) /\
  (In s (l_p L) <-> In s syms /\ In (s_ "parameter") (snd s)) /\
  (In s (l_v L) <-> In s syms /\
     (snd s = [] \/ (In (s_ "output") (snd s) /\ in_names s (l_x L) = false))).
Proof. repeat (split; [apply by_prefix_In|]). apply v_In. Qed.
Print Assumptions C24_lists.

(* DISTINCT SYMBOLS.  Two flat names get different Python identifiers provided neither contains
   an underscore immediately followed by an underscore or a dot ([cleanb]) and neither is, after
   the dot replacement, a reserved name followed by one or more underscores ([no_shadow]).
   Without these carve-outs the statement is false of the code: C24_injective_refuted. *)
Theorem C24_injective (B : list str) (a b : str) :
  cleanb a = true -> cleanb b = true ->
  no_shadow B (repl a) -> no_shadow B (repl b) ->
  sym_name B a = sym_name B b -> a = b.
Proof.
  intros Ca Cb Sa Sb H. unfold sym_name in H. apply bump_inj in H; [|assumption..].
  rewrite <- (unrepl_repl a Ca), <- (unrepl_repl b Cb). now rewrite H.
Qed.
Print Assumptions C24_injective.

(* the first carve-out is tight: every name that is not clean collides with another name *)
Theorem C24_unclean_collides (n : str) :
  cleanb n = false -> exists m, m <> n /\ repl m = repl n.
Proof. exact (unclean_collides n). Qed.
Print Assumptions C24_unclean_collides.

(* known, unrepaired defects of the mangling (findings/known.d/C24.json), with the reserved
   names as evaluated by the implementation *)
Theorem C24_injective_refuted :
  (s_ "a.b" <> s_ "a__b" /\ sym_name BUILTINS0 (s_ "a.b") = sym_name BUILTINS0 (s_ "a__b")) /\
  (s_ "x_.y" <> s_ "x._y" /\ sym_name BUILTINS0 (s_ "x_.y") = sym_name BUILTINS0 (s_ "x._y")) /\
  (s_ "copy" <> s_ "copy_" /\ sym_name BUILTINS0 (s_ "copy") = sym_name BUILTINS0 (s_ "copy_")).
Proof. repeat split; try discriminate; vm_compute; reflexivity. Qed.
Print Assumptions C24_injective_refuted.

(* a model that declares a component called "time": references to it are emitted as self.t *)
Theorem C24_time_refuted :
  exists E : penv,
    peval (fun _ _ => None) (fun _ _ => None) E (embed BUILTINS0 (EVar TIME))
    <> m_eval (fun _ _ => None) (fun _ _ => None) (pull BUILTINS0 E true) (EVar TIME).
Proof.
  exists (PEnv (fun _ => 0%Qc) (fun _ => 0%Qc) 1%Qc). vm_compute. intros H. discriminate H.
Qed.
Print Assumptions C24_time_refuted.

(* non-vacuity: a concrete equation, its emitted line, and the value the reader gives it.
   der(m * v) = (x + a.b) * -(k) ^ 2  at m=v=3, x=3, a.b=1/2, k=2, all derivatives 5:
   (5*3 + 3*5) - (7/2 * -4) = 44 *)
Example C24_example :
  let l := EDer (EBin Mul (EVar (s_ "m")) (EVar (s_ "v"))) in
  let r := EBin Mul (EBin Add (EVar (s_ "x")) (EVar (s_ "a.b")))
                    (EUn true (EBin Pow (EVar (s_ "k")) (ENum (s_ "2") (Q2Qc 2)))) in
  let E := PEnv (fun s => if str_eqb s (s_ "k") then Q2Qc 2
                          else if str_eqb s (s_ "a__b") then Q2Qc (1 # 2) else Q2Qc 3)
                (fun _ => Q2Qc 5) (Q2Qc 0) in
  let powf := fun a b : dual => if Qc_eq_dec (fst b) (Q2Qc 2)
                                then Some (fst a * fst a, Q2Qc 2 * fst a * snd a)%Qc else None in
  let ev := fun ts => option_map (fun d : dual => this (fst d))
                        (obind (py_parse 200 ts) (peval powf (fun _ _ => None) E)) in
  mem TIME BUILTINS0 = false /\
  print_eq BUILTINS0 l r = s_ "sympy.sympify((m) * (v)).diff(self.t) - (((x) + (a__b)) * (- ((k) ** (2))))" /\
  Nat.leb (need_eq l r) 200 = true /\
  ev (print_tok_eq BUILTINS0 l r) = Some (44 # 1)%Q /\
  (* der() of a literal-only expression is 0 (the argument is sympified before .diff) *)
  ev (print_tok BUILTINS0 (EDer (EBin Mul (ENum (s_ "2") (Q2Qc 2)) (ENum (s_ "0.5") (Q2Qc (1 # 2))))))
  = Some (0 # 1)%Q /\
  (* without a delimiter around the der() argument the trailer binds to the last operand only:
     (m) * (v).diff(self.t) is m * v' = 15, not (m*v)' = 30 *)
  ev [TLp; TName (s_ "m"); TRp; TSp; TOp Mul; TSp; TLp; TName (s_ "v"); TRp; TDiff] = Some (15 # 1)%Q /\
  ev (print_tok BUILTINS0 l) = Some (30 # 1)%Q /\
  (* the unparenthesised form of the unrepaired printer reads as something else *)
  py_parse 40 [TName (s_ "x"); TSp; TOp Add; TSp; TName (s_ "y"); TSp; TOp Mul; TSp; TName (s_ "k")]
  = Some (PBin Add (PName (s_ "x")) (PBin Mul (PName (s_ "y")) (PName (s_ "k")))).
Proof. vm_compute. repeat split; reflexivity. Qed.
Print Assumptions C24_example.
