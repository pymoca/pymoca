(* C19 — cached and code-generated models equal fresh compiles.
   The property theorems; the model is Model/C19_cache.v, the lemmas behind them are in Proofs/C19_cache.v;
   the concrete model is evaluated here.

   Reading.  `save m` is what save_model writes (variable dictionaries with MX attributes replaced by
   None, the dependency matrices NOT_MX / MX_DEPENDENT / MX_INDEPENDENT, the metadata and
   delay-argument Functions, the delay-duration dependency lists, outputs / delay states / strings /
   alias relation as plain pickled data); `load pkm pkd d` is what load_model rebuilds from it
   (Variable.from_dict, symbolic call of the metadata function for MX_DEPENDENT cells, call with NaN
   for MX_INDEPENDENT cells, one matrix ROW PER SCALAR ELEMENT, NaN call / replace_false_deps /
   substitute for the delay durations with the `actual_deps` rebinding as coded).
   `pkm`, `pkd` stand for the serialisation of the two CasADi Functions (pickle, or CodeGenerator +
   C compiler + ca.external); the only thing assumed about them is that the result EVALUATES like the
   original (pkm_ok, pkd_ok) - nothing about its expression structure.
   Values are V = option Qc with None = NaN; `rho` ranges over ALL valuations, NaN included. *)
From Coq Require Import List Bool Arith QArith Qcanon.
From PV Require Import Model.C19_cache Proofs.C19_cache.
Import ListNotations.
Open Scope nat_scope.

(* For EVERY well-formed model (any number of variables per category, any shapes, any attribute
   expressions; well-formed = an MX attribute has one element or one per element of its variable, and
   derivative states carry python-valued attributes only) the loaded model has, category by category
   and in the same ORDER, variables with the same name, shape, python type and alias set; every
   attribute has the same KIND (python value vs MX); python-valued attributes are identical; MX-valued
   attributes evaluate, after broadcasting to the variable's shape, to the same values at EVERY
   parameter valuation; derivative states, outputs, delay states, string variables and the alias
   relation are identical; and every delay argument (expression and duration) evaluates to the same
   value at every valuation of all symbols. *)
Theorem C19_roundtrip
  (pkm : mfun -> mfun) (pkd : list (expr * expr) -> list (expr * expr))
  (pkm_ok : forall f rho c r j, call_meta (pkm f) rho c r j = call_meta f rho c r j)
  (pkd_ok : forall f, Forall2 delay_equiv (pkd f) f)
  (m : model) :
  wf m -> obs_equiv (load pkm pkd (save m)) m.
Proof. exact (roundtrip pkm pkd pkm_ok pkd_ok m). Qed.
Print Assumptions C19_roundtrip.

(* The classification stored by save_model is sound: a cell classified MX_INDEPENDENT contains no
   parameter symbol, hence the NaN call returns exactly its constant value at every valuation; a
   cell classified MX_DEPENDENT really mentions a parameter; NOT_MX cells are python values. *)
Theorem C19_classification_sound (a : attr) :
  (classify a = MX_INDEPENDENT ->
     exists es, a = MX es /\ forall e, In e es -> vars e = [] /\ forall rho, eval rho e = eval nanrho e) /\
  (classify a = MX_DEPENDENT -> exists es e i, a = MX es /\ In e es /\ In i (vars e)) /\
  (classify a = NOT_MX -> exists p, a = Py p).
Proof. exact (conj (classify_independent a) (conj (classify_dependent a) (classify_not_mx a))). Qed.
Print Assumptions C19_classification_sound.

(* The delay-argument part needs no well-formedness at all: for ANY model, each reconstructed delay
   argument evaluates like the original, whichever of the three reconstruction branches is taken
   (NaN call; replace_false_deps only; replace_false_deps followed by substitute). *)
Theorem C19_delay_arguments
  (pkm : mfun -> mfun) (pkd : list (expr * expr) -> list (expr * expr))
  (pkd_ok : forall f, Forall2 delay_equiv (pkd f) f) (m : model) :
  Forall2 delay_equiv (m_delays (load pkm pkd (save m))) (m_delays m).
Proof. exact (delay_arguments pkm pkd pkd_ok m). Qed.
Print Assumptions C19_delay_arguments.

(* Non-vacuity: a concrete well-formed model with a scalar state (dependent min, constant MX nominal),
   an ARRAY variable v[2] (each min = -p2, vector max = pa) followed by an Integer variable whose min
   is pa[2], an array parameter and three delays with different dependencies; its dependency matrices,
   delay dependency lists, and the loaded attributes of the second category evaluated at a valuation
   (the variable after the array reads its own row). *)
Example C19_example :
  wf ex_model /\
  db_dep (save ex_model) =
    [ [ [NOT_MX; MX_DEPENDENT; NOT_MX; NOT_MX; NOT_MX; MX_INDEPENDENT] ];
      [ [NOT_MX; MX_DEPENDENT; MX_DEPENDENT; NOT_MX; NOT_MX; NOT_MX];
        [NOT_MX; MX_DEPENDENT; NOT_MX; NOT_MX; NOT_MX; NOT_MX] ];
      []; [ [NOT_MX; NOT_MX; NOT_MX; NOT_MX; NOT_MX; NOT_MX]; [NOT_MX; NOT_MX; NOT_MX; NOT_MX; NOT_MX; NOT_MX];
            [NOT_MX; NOT_MX; NOT_MX; NOT_MX; NOT_MX; NOT_MX] ]; [] ] /\
  db_delay_dep (save ex_model) = [[5]; [6]; []] /\
  list_eqb (list_eqb (list_eqb V_eqb))
    (map (fun v => map (attr_vals ex_rho (numel (vshape v))) (vattrs v))
         (nth 1 (m_meta (load (fun f => f) (fun f => f) (save ex_model))) []))
    [ [ []; [Some (qz (-1) 1); Some (qz (-1) 1)]; [Some (qz 3 2); Some (qz 2 1)]; []; []; [] ];
      [ []; [Some (qz 2 1)]; []; []; []; [] ] ] = true.
Proof. split; [exact ex_wf|]. vm_compute. repeat split. Qed.
Print Assumptions C19_example.
