(* C18 — vector expansion is a faithful renaming to scalars.
   Property theorems; proofs (and the predicates the statements use) in Proofs/C18_{expand,total,residual,meta}.v;
   the model (Model/C18_expand.v) mirrors Model._expand_vectors and is compared with the real code on every
   run (check_case). *)
From Coq Require Import String List Arith ZArith.
From PV Require Import Model.C18_expand Model.C18_matrix Proofs.C18_expand Proofs.C18_total Proofs.C18_residual Proofs.C18_meta.
Import ListNotations.
Open Scope nat_scope.

(* element |-> scalar name is a bijection between the in-range index tuples of the array (for every
   shape: any number of nested components, any rank, der(...) wrapped or a delay state) and the
   generated names: np.ndindex lists exactly the tuples below the dimensions, once each; there are
   prod(dims) names; no two elements share a name *)
Theorem C18_bijection (name : string) (s : vshape) (names : list string) :
  opt_all (map (scalar_name name s) (ndindex (iter_dims s))) = Some names ->
  let dims := iter_dims s in
  (forall idx, In idx (ndindex dims) <-> Forall2 lt idx dims)
  /\ NoDup (ndindex dims)
  /\ map Some names = map (scalar_name name s) (ndindex dims)
  /\ length names = product dims
  /\ NoDup names
  /\ (forall i1 i2 n, Forall2 lt i1 dims -> Forall2 lt i2 dims ->
        scalar_name name s i1 = Some n -> scalar_name name s i2 = Some n -> i1 = i2).
Proof.
  intros H dims.
  exact (conj (ndindex_In dims) (conj (ndindex_NoDup dims) (conj (eq_sym (opt_all_some _ _ H))
        (conj (names_length _ _ _ H) (conj (names_NoDup _ _ _ H)
        (fun i1 i2 n F1 F2 =>
           scalar_name_inj name s i1 i2 n (Forall2_length _ _ _ F1) (Forall2_length _ _ _ F2))))))).
Qed.
Print Assumptions C18_bijection.

(* ... and these are the names of the expanded variables, with prod(dims) of them *)
Theorem C18_expand_var_names (v : uvar) ex :
  expand_var v = Some ex ->
  let idxs := ndindex (iter_dims (ushape v)) in
  opt_all (map (scalar_name (uname v) (ushape v)) idxs) = Some (map fst ex)
  /\ map snd ex = map (fun idx => map (fun a => sel_attr a idx) (uattrs v)) idxs
  /\ length ex = product (iter_dims (ushape v)).
Proof. exact (expand_var_spec v ex). Qed.
Print Assumptions C18_expand_var_names.

(* indices in names are 1-based Modelica indices *)
Theorem C18_one_based (n : string) (i j d1 d2 : nat) :
  render [n] [[d1; d2]] [i; j]
  = (n ++ "[" ++ show_nat (i + 1) ++ "," ++ show_nat (j + 1) ++ "]")%string.
Proof. exact (one_based n i j d1 d2). Qed.
Print Assumptions C18_one_based.

(* the matrix substituted for an n x m symbol, reshape(vertcat(scalars), (m, n)).T with CasADi's
   column-major reshape, has at (i, j) the scalar enumerated at position i*m+j, which is the one
   np.ndindex produces for the index [i; j] (named [i+1, j+1]); for all n, m *)
Theorem C18_layout (names : list string) (n m i j : nat) :
  length names = n * m -> i < n -> j < m ->
  mget (subst_matrix names n m) i j = nth (j + i * m) names EmptyString
  /\ nth (j + i * m) (ndindex [n; m]) [] = [i; j]
  /\ m_rows (subst_matrix names n m) = n /\ m_cols (subst_matrix names n m) = m.
Proof. exact (layout names n m i j). Qed.
Print Assumptions C18_layout.

(* each scalar carries the matching element of an array attribute, or the scalar:
   - a list attribute of the full rank: the scalars, in enumeration order, carry the row-major
     flattening of the list;   - a scalar attribute: every scalar carries it;
   - a CasADi matrix attribute (DM / MX) of an n1 x n2 array: element (i, j); of a length-n array
     given as a column: element k (the hypotheses `1 < n1 * n2`, `1 < n` are not needed) *)
Theorem C18_attributes :
  (forall dims v, shaped dims v -> map (sel_list v) (ndindex dims) = map SVal (flat dims v))
  /\ (forall a idx, sel_attr (AtScalar a) idx = SVal a)
  /\ (forall ismx n1 n2 rows i j, 1 < n1 * n2 -> i < n1 -> j < n2 ->
        sel_attr (AtMat ismx n1 n2 rows) [i; j] = mat_get rows i j)
  /\ (forall ismx n rows k, 1 < n -> k < n -> sel_attr (AtMat ismx n 1 rows) [k] = mat_get rows k 0).
Proof.
  exact (conj attributes_list (conj attributes_scalar
    (conj (fun ismx n1 n2 rows i j _ => attributes_matrix ismx n1 n2 rows i j)
          (fun ismx n rows k _ => attributes_column ismx n rows k)))).
Qed.
Print Assumptions C18_attributes.

(* TOTALITY, with the carve-out made exact.  The expansion of a variable is defined whenever its names
   are (component count matches the shape) and every attribute is a scalar (np.isscalar value or 1x1
   MX), or an array of exactly the tensor shape of the index: nested list, or DM/MX holding a length-n
   array as n x 1 column / an n x m array as n x m matrix. *)
Theorem C18_expand_total (v : uvar) (names : list string) :
  opt_all (map (scalar_name (uname v) (ushape v)) (ndindex (iter_dims (ushape v)))) = Some names ->
  Forall (attr_ok (iter_dims (ushape v))) (uattrs v) ->
  exists ex, expand_var v = Some ex.
Proof. exact (expand_total_ok v names). Qed.
Print Assumptions C18_expand_total.

(* The generator hands over scalars, arrays of the whole flattened symbol's shape, or arrays of the
   declared member's own shape (declared inside the component's class, or `each`).  Among those, the
   ONLY ones outside `attr_ok` are array attributes of the member's own rank on a variable that lives
   in a component ARRAY (attribute rank < index rank): exactly the two known findings. *)
Theorem C18_carveout_exact (s : vshape) (a : attr) :
  attr_declared s a -> attr_ok (iter_dims s) a \/ lowrank_in_component_array s a.
Proof. exact (carveout_exact s a). Qed.
Print Assumptions C18_carveout_exact.

Theorem C18_no_component_array_total (s : vshape) (a : attr) :
  outer_dims s = [] -> attr_declared s a -> attr_ok (iter_dims s) a.
Proof. exact (no_component_array_total s a). Qed.
Print Assumptions C18_no_component_array_total.

(* KNOWN DEFECT, tag list-attribute-in-component-array (mirrored by the model): every list attribute
   of lower rank than the index makes the expansion raise, whatever the sizes *)
Theorem C18_lowrank_list_refuted (v : uvar) (l : nlist) (d : list nat) :
  In (AtList l) (uattrs v) -> shaped d l -> length d < length (iter_dims (ushape v)) ->
  ndindex (iter_dims (ushape v)) <> [] -> expand_var v = None.
Proof. exact (lowrank_list_refuted v l d). Qed.
Print Assumptions C18_lowrank_list_refuted.

(* KNOWN DEFECT, tag dm-attribute-in-component-array: a length-n member (n >= 2) whose attribute is an
   n x 1 DM, inside `Sub s[c]` *)
Theorem C18_lowrank_dm_refuted (v : uvar) (n c : nat) rows :
  In (AtMat false n 1 rows) (uattrs v) -> iter_dims (ushape v) = [c; n] -> 0 < c -> 2 <= n ->
  expand_var v = None.
Proof. exact (lowrank_dm_refuted v n c rows). Qed.
Print Assumptions C18_lowrank_dm_refuted.

(* the recorded replay inputs as witnesses: `Sub s[2]` with `parameter Real k[2] = {3, 4}` and with
   `parameter Real k[3] = fill(2.5, 3)` inside Sub; both attributes are well-formed arrays of the
   member's own shape (numbers as written in the first, scaled by 64 as the harness encodes them in the
   second; they play no role) *)
Theorem C18_attributes_refuted :
  exists v, ushape v = Nested [[2]; [2]]
            /\ uattrs v = [AtList (NNode [NLeaf (ANum 3); NLeaf (ANum 4)])]
            /\ lowrank_in_component_array (ushape v) (AtList (NNode [NLeaf (ANum 3); NLeaf (ANum 4)]))
            /\ expand_var v = None.
Proof.
  exists (mk_uvar "s.k" (Nested [[2]; [2]]) (2, 2) [AtList (NNode [NLeaf (ANum 3%Z); NLeaf (ANum 4%Z)])]).
  repeat split; try discriminate.
  - cbn. eexists. split; [reflexivity|]. split; [reflexivity|]. repeat constructor; eexists; reflexivity.
  - cbn. auto.
Qed.
Print Assumptions C18_attributes_refuted.

Theorem C18_attributes_refuted_dm :
  exists v a, ushape v = Nested [[2]; [3]] /\ uattrs v = [a]
            /\ a = AtMat false 3 1 [[ANum 160]; [ANum 160]; [ANum 160]]
            /\ lowrank_in_component_array (ushape v) a
            /\ expand_var v = None.
Proof.
  exists (mk_uvar "s.k" (Nested [[2]; [3]]) (2, 3) [AtMat false 3 1 [[ANum 160%Z]; [ANum 160%Z]; [ANum 160%Z]]]).
  eexists. repeat split; try discriminate.
  - repeat constructor.
  - left. auto.
  - cbn. auto.
Qed.
Print Assumptions C18_attributes_refuted_dm.

(* outputs: the array's entry is replaced, in place and in order, by its scalars *)
Theorem C18_outputs_in_place (pre post : list string) (x : string) (new : list string) :
  ~ In x pre -> rename_outputs (pre ++ x :: post) x new = pre ++ new ++ post.
Proof. exact (outputs_in_place pre post x new). Qed.
Print Assumptions C18_outputs_in_place.

(* delay states: visiting them in list order (each visit pops the state and appends its scalars)
   leaves the scalars in the order of their states *)
Theorem C18_delay_order (f : string -> list string) (ds : list string) :
  fold_left (fun acc x => rename_delay acc x (f x)) ds ds = flat_map f ds.
Proof. exact (delay_order f ds). Qed.
Print Assumptions C18_delay_order.

(* RESIDUAL, matrix level.  CasADi matrices are (rows, cols, column-major list); expressions: array
   symbols (also der(..) and delay-state symbols), scalar symbols, DM constants, element-wise + - .*,
   scalar x array, unary minus, mtimes, transpose, slices / element references, reshape, vec, vertsplit.
   `expand` replaces every array symbol by reshape(vertcat(scalars), (n2, n1)).T as the code does.
   For every point (rm, rs) of the unexpanded model, rho' (each scalar name |-> the corresponding
   element, every other scalar unchanged) is a point of the expanded model at which the scalar
   equations vertsplit(vec(expand eq)), in order, evaluate to veccat of the unexpanded equations, i.e.
   dae_residual_function of the expanded model = that of the unexpanded model under the renaming.
   Hypotheses: the array symbols have their declared shapes and n1*n2 names each; no two elements share
   a name (C18_bijection gives this per variable, see C18_residual_names); scalar symbols of the
   equations are not among the new names.  rm0 is arbitrary: the expanded equations contain no
   array symbol.
   Not modelled: for-loop `map` nodes, if_else, function calls, IEEE rounding (values are integers). *)
Theorem C18_residual (dims : string -> nat * nat) (names : string -> list string)
        (rm rm0 : string -> zmat) (rs : string -> Z) (vars : list string) (eqs : list mexpr) :
  NoDup (flat_map names vars) ->
  (forall v, In v vars ->
     zr (rm v) = fst (dims v) /\ zc (rm v) = snd (dims v) /\ zwf (rm v)
     /\ length (names v) = fst (dims v) * snd (dims v)) ->
  (forall e v, In e eqs -> In v (mvars e) -> In v vars) ->
  (forall e s, In e eqs -> In s (msyms e) -> ~ In s (flat_map names vars)) ->
  let rs' := rho' names rm vars rs in
  map (fun s => zget (eval rm0 rs' s) 0 0)
      (flat_map (fun e => split_equation dims names (length (zd (eval rm rs e))) e) eqs)
  = flat_map (fun e => zd (eval rm rs e)) eqs.
Proof.
  intros ND W HV HS rs'.
  destruct (renaming_exists dims names rm rs vars ND W) as (Ren & Keep).
  apply residual_vector.
  - intros e v He Hv. apply Ren. eapply HV; eauto.
  - intros e He s Hs. apply Keep. eapply HS; eauto.
Qed.
Print Assumptions C18_residual.

(* the same per expression, for any expanded point rs' that satisfies the renaming: the whole matrix
   value is preserved (shape and every entry) *)
Theorem C18_residual_matrix (dims : string -> nat * nat) (names : string -> list string)
        (rm rm0 : string -> zmat) (rs rs' : string -> Z) (e : mexpr) :
  (forall v, In v (mvars e) -> renamed dims names rm rs' v) -> scalars_kept rs rs' e ->
  eval rm0 rs' (expand dims names e) = eval rm rs e.
Proof. exact (residual_matrix dims names rm rs rm0 rs' e). Qed.
Print Assumptions C18_residual_matrix.

(* the names generated by the model of _expand_vectors for ANY variable - 1-D, 2-D, inside component
   arrays, der(...) wrapped, delay state - are n1*n2 pairwise distinct names, the k-th being the name of
   the k-th np.ndindex tuple: what C18_residual asks of `names` *)
Theorem C18_residual_names (v : uvar) ex (n1 n2 : nat) :
  expand_var v = Some ex -> product (iter_dims (ushape v)) = n1 * n2 ->
  length (map fst ex) = n1 * n2 /\ NoDup (map fst ex)
  /\ map Some (map fst ex) = map (scalar_name (uname v) (ushape v)) (ndindex (iter_dims (ushape v))).
Proof.
  intros E P. destruct (expand_var_spec v ex E) as (N & _ & _).
  split; [now rewrite (names_length _ _ _ N)|]. split; [exact (names_NoDup _ _ _ N)|].
  exact (eq_sym (opt_all_some _ _ N)).
Qed.
Print Assumptions C18_residual_names.

(* non-vacuity of C18_residual: `Sub s[2]` with `Real x[2]` (a 2 x 2 symbol), its derivative, a vector w and
   a delay state, with the names the model generates; equations use transpose, scalar x array, mtimes, a
   slice, .* and vertsplit.  The hypotheses hold and the (integer) residual is the same list. *)
Example C18_residual_example :
  (NoDup (flat_map ex_names ex_vars)
   /\ (forall v, In v ex_vars ->
         zr (ex_rm v) = fst (ex_dims v) /\ zc (ex_rm v) = snd (ex_dims v) /\ zwf (ex_rm v)
         /\ length (ex_names v) = fst (ex_dims v) * snd (ex_dims v))
   /\ (forall e v, In e ex_eqs -> In v (mvars e) -> In v ex_vars)
   /\ (forall e s, In e ex_eqs -> In s (msyms e) -> ~ In s (flat_map ex_names ex_vars))
   /\ flat_map ex_names ex_vars
      = ["s[1].x[1]"; "s[1].x[2]"; "s[2].x[1]"; "s[2].x[2]";
         "der(s[1].x[1])"; "der(s[1].x[2])"; "der(s[2].x[1])"; "der(s[2].x[2])";
         "_pymoca_delay_0[1,1]"; "_pymoca_delay_0[2,1]"; "w[1]"; "w[2]"]%string)
  /\ flat_map (fun e => zd (eval ex_rm ex_rs e)) ex_eqs
     = [-1607; -1668; -1623; -1684; -908022; -938132; -475]%Z.
Proof.
  split; [|vm_compute; reflexivity].
  (* the twelve names are computed once; N is replaced by them only in the parts that need their value *)
  remember (flat_map ex_names ex_vars) as N eqn:E. vm_compute in E.
  split; [subst N; apply nodupb_sound; vm_compute; reflexivity|].
  split.
  { intros v [<-|[<-|[<-|[<-|[]]]]]; vm_compute; auto. }
  split.
  { intros e v He Hv.
    apply (forallb2_forall mvars (fun v => existsb (String.eqb v) ex_vars) ex_eqs eq_refl e v He) in Hv.
    apply existsb_exists in Hv as (x & Hx & Ex). apply String.eqb_eq in Ex. now subst x. }
  split; [|exact E].
  intros e s He Hs. apply existsb_eqb_false, Bool.negb_true_iff.
  revert e s He Hs. apply (forallb2_forall msyms). subst N. reflexivity.
Qed.
Print Assumptions C18_residual_example.

(* METADATA.  Expansion commutes with the metadata row function: for ANY function `row` that computes a
   variable's metadata row from its attribute objects (six in the code, any list here; for all R, row -
   nothing is assumed about it),
   in a category of a model without delay states the rows of the EXPANDED model's variables are, per
   variable of the unexpanded model in order, `row` of that variable's attributes specialised to each
   element in np.ndindex order (the selected element of every attribute); a scalar keeps its own row.
   PARTIAL: models with delay states are not covered (their renaming interleaves with the loop), and the
   link to C13 is through `c13_row` below, not through C13's `var`/`decl` records. *)
Theorem C18_metadata_rows_partial (R : Type) (row : list sel -> R) (g : list uvar) acc s acc' s' :
  fold_left step_var g (Some (acc, s)) = Some (acc', s') -> st_delay s = [] ->
  map row (map snd acc')
  = map row (map snd acc)
    ++ flat_map (fun v => if has_dims (ushape v)
                          then map (fun idx => row (map (fun a => sel_attr a idx) (uattrs v)))
                                   (ndindex (iter_dims (ushape v)))
                          else [row (map keep_attr (uattrs v))]) g.
Proof. exact (metadata_rows_commute R row g acc s acc' s'). Qed.
Print Assumptions C18_metadata_rows_partial.

(* the rows themselves; and no delay state appears *)
Theorem C18_metadata_rows_own_partial (g : list uvar) acc s acc' s' :
  fold_left step_var g (Some (acc, s)) = Some (acc', s') -> st_delay s = [] ->
  map snd acc' = map snd acc ++ flat_map (fun v => rows_of v []) g /\ st_delay s' = [].
Proof. exact (metadata_rows_group g acc s acc' s'). Qed.
Print Assumptions C18_metadata_rows_own_partial.

(* instance in the vocabulary of C13's metadata model (Model/C13_metadata.v): row = c13_row maps every
   selected attribute number to the C13 cell `CLit (ext)`.  C18_c13_cells below: C13's `column` of a size-1
   Real variable with a finite literal q is `[CLit (Fin q)]`, resp. C13's default cell - cells of that form;
   no theorem states that q is the number c13_cell reads.  What remains for a full link: building C13's `var`/`decl`
   record of an expanded scalar from the attribute objects (python types/tags, Integer/Boolean coercion,
   symbolic `DExp` cells) and the affine rebuild A*p+b. *)
Theorem C18_metadata_rows_c13_partial (g : list uvar) acc s acc' s' :
  fold_left step_var g (Some (acc, s)) = Some (acc', s') -> st_delay s = [] ->
  map c13_row (map snd acc')
  = map c13_row (map snd acc)
    ++ flat_map (fun v => if has_dims (ushape v)
                          then map (fun idx => c13_row (map (fun a => sel_attr a idx) (uattrs v)))
                                   (ndindex (iter_dims (ushape v)))
                          else [c13_row (map keep_attr (uattrs v))]) g.
Proof. exact (metadata_rows_commute _ c13_row g acc s acc' s'). Qed.
Print Assumptions C18_metadata_rows_c13_partial.

Theorem C18_c13_cells :
  (forall d a q, d a = C13.DLit (C13.LReal q) ->
     C13.column (C13.Var C13.TReal 1 d) a = Some [C13.CLit (C13.Fin q)])
  /\ (forall d a, d a = C13.DNone ->
     C13.column (C13.Var C13.TReal 1 d) a = Some [C13.CLit (fst (C13.default a))]).
Proof. exact (conj c13_column_literal c13_column_default). Qed.
Print Assumptions C18_c13_cells.

(* non-vacuity: a der() array inside a component array, an output renamed in place, a delay state *)
Example C18_example :
  option_map (fun r => (map (map fst) (fst r), st_outs (snd r), st_delay (snd r)))
    (expand_model
       [[mk_uvar "der(s.x)" (Nested [[2]; [2]]) (2, 2) [AtScalar ANaN]];
        [mk_uvar "_pymoca_delay_0" (Flat [2; 1]) (2, 1) [AtScalar ANaN];
         mk_uvar "o" (Nested [[2; 2]]) (2, 2) [AtList (NNode [NNode [NLeaf (ANum 1); NLeaf (ANum 2)];
                                                               NNode [NLeaf (ANum 3); NLeaf (ANum 4)]])]]]
       ["a"; "o"; "b"]%string ["_pymoca_delay_0"]%string)
  = Some ([["der(s[1].x[1])"; "der(s[1].x[2])"; "der(s[2].x[1])"; "der(s[2].x[2])"];
           ["_pymoca_delay_0[1,1]"; "_pymoca_delay_0[2,1]"; "o[1,1]"; "o[1,2]"; "o[2,1]"; "o[2,2]"]]%string,
          ["a"; "o[1,1]"; "o[1,2]"; "o[2,1]"; "o[2,2]"; "b"]%string,
          ["_pymoca_delay_0[1,1]"; "_pymoca_delay_0[2,1]"]%string).
Proof. vm_compute. reflexivity. Qed.
Print Assumptions C18_example.
