(* C09 — connections produce exactly the Modelica connection-set equations.
   The property theorems, assembled from the lemmas of Proofs/C09_connect.v, C09_names.v, C09_indexed.v.
   Notation: cs = flattened connect clauses in order (any list, any length);
   flow_pairs cs / pot_pairs cs = the pairs of flow keys (name, inside?) / potential names they
   connect; eqv = equivalence closure (Lib/Closure.v); valuations ρ : var → Qc (exact rationals). *)
From stdpp Require Import gmap strings.
From Coq Require Import QArith Qcanon Ascii String.
From PV Require Import Lib.Closure Lib.DotJoin Model.C09_connect Proofs.C09_connect Proofs.C09_names Proofs.C09_indexed.
Close Scope Qc_scope.
Close Scope Q_scope.
Close Scope string_scope.

(* The first five theorems hold for EVERY way of building flattened names (class Naming: Sg = name
   segment, N = flattened name): structured paths and dot-joined strings alike.  The string-level
   theorems below add what makes the string names faithful. *)
Section Generic.
Context {Sg N : Type} `{Countable N} `{!Naming Sg N}.
Local Notation var := N.
Local Notation fclause := ((N * bool) * (N * bool) * list (Sg * kind))%type.

(* the distinct set objects left in flow_connections are duplicate free, pairwise disjoint, each is
   the closure class of a mentioned key, every mentioned key lies in one, and two keys share a set
   iff they are related by the equivalence closure of the connect pairs *)
Theorem C09_partition (flows : list var) (cs : list fclause) :
  let P := flow_pairs cs in
  let sets := sets_of (fc (run_clauses flows cs)) in
  NoDup sets ∧
  (∀ S T, S ∈ sets → T ∈ sets → S ≠ T → S ## T) ∧
  (∀ S, S ∈ sets → ∃ k, mentioned P k ∧ k ∈ S ∧ ∀ v, v ∈ S ↔ eqv P k v) ∧
  (∀ k, mentioned P k → ∃ S, S ∈ sets ∧ k ∈ S) ∧
  (∀ a b, mentioned P a → (∃ S, S ∈ sets ∧ a ∈ S ∧ b ∈ S) ↔ eqv P a b).
Proof.
  intros P. rewrite fc_run_clauses. fold P. intros sets. subst sets.
  split; [apply NoDup_remove_dups|]. split; [apply sets_disjoint|]. split; [|split].
  - intros S (k & Hk & HS)%sets_are_classes. exists k. split; [done|]. split; [apply HS, eqv_refl|done].
  - intros k (S & HS & Hcl)%mentioned_has_set. exists S. split; [done|apply Hcl, eqv_refl].
  - apply share_iff_eqv.
Qed.

(* a valuation satisfies the generated flow equations iff every closure class of a mentioned key
   (however enumerated, duplicate free) has signed sum zero, inside +, outside −, and every flow
   name of the class that no connect clause mentions is zero *)
Theorem C09_flow (flows : list var) (cs : list fclause) (ρ : var → Qc) :
  sat ρ (flow_eqs flows cs) ↔
  (∀ k l, mentioned (flow_pairs cs) k → NoDup l ∧ (∀ v, v ∈ l ↔ eqv (flow_pairs cs) k v) →
          ssum ρ l = 0%Qc) ∧
  (∀ n, n ∈ flows → (∀ k, mentioned (flow_pairs cs) k → k.1 ≠ n) → ρ n = 0%Qc).
Proof. unfold flow_eqs. rewrite fc_run_clauses. apply sat_flow_rows, disc_run_clauses. Qed.

(* it satisfies the generated equalities iff it is constant on every closure class of the
   connected potential variables *)
Theorem C09_potential (cs : list fclause) (ρ : var → Qc) :
  sat ρ (pot_eqs cs) ↔ ∀ a b, eqv (pot_pairs cs) a b → ρ a = ρ b.
Proof. unfold pot_eqs. rewrite eqs_run_clauses. apply sat_pot_rows. Qed.

(* end to end on the hierarchical input: for every instance tree (any nesting depth, any clauses)
   the rows the model of flatten + expand_connectors emits have exactly the solutions of the
   connection semantics of its flattened clauses, with the inside/outside flag of tree.py:676-679 *)
Theorem C09_model_rows (i : inst Sg) (ρ : var → Qc) :
  sat ρ (model_rows i) ↔
  pot_spec (pot_pairs (flat_clauses [] i)) ρ ∧
  flow_spec (flat_flows [] i) (flow_pairs (flat_clauses [] i)) ρ.
Proof. exact (expand_correct (flat_flows [] i) (flat_clauses [] i) ρ). Qed.

(* value-level form of the object-sharing invariant: every present key is a member of the set it
   points to and every member of that set points to the same set *)
Theorem C09_sharing_invariant (flows : list var) (cs : list fclause) :
  let m := fc (run_clauses flows cs) in
  ∀ k S, m !! k = Some S → k ∈ S ∧ ∀ v, v ∈ S → m !! v = Some S.
Proof. intros m k S. unfold m. rewrite fc_run_clauses. apply inv_lookup, run_inv. Qed.
End Generic.
Print Assumptions C09_partition.
Print Assumptions C09_flow.
Print Assumptions C09_potential.
Print Assumptions C09_model_rows.
Print Assumptions C09_sharing_invariant.

(* non-vacuity: model M  Comp a(4), b(5);  Pin t(3);  connect(a.p, b.n); connect(t, a.n);
   connect(b.n, t)  — one merged set of four keys with an outside connector — has a solution with
   non-zero flows, and the valuation that is 1 everywhere is not a solution *)
Definition ex_pin : list (positive * kind) := [(10%positive, KPot); (11%positive, KFlow); (12%positive, KPar)].
Definition ex_comp : inst positive := Inst [(1%positive, ex_pin); (2%positive, ex_pin)] [] [].
Definition ex_m : inst positive :=
  Inst [(3%positive, ex_pin)] [(4%positive, ex_comp); (5%positive, ex_comp)]
       [Clause (CRef (Some 4%positive) 1%positive) (CRef (Some 5%positive) 2%positive) ex_pin;
        Clause (CRef None 3%positive) (CRef (Some 4%positive) 2%positive) ex_pin;
        Clause (CRef (Some 5%positive) 2%positive) (CRef None 3%positive) ex_pin].
Definition ex_rho (v : list positive) : Qc :=
  if decide (v = [3; 11]%positive) then Q2Qc (5 # 2)
  else if decide (v = [4; 1; 11]%positive) then Q2Qc (3 # 2)
  else if decide (v = [4; 2; 11]%positive) then 1%Qc
  else 0%Qc.

Definition ex_rows : list (list (list positive * Z)) := model_rows ex_m.
Definition ex_sets : list (list (list positive * bool)) := model_sets ex_m.
Definition ones (_ : list positive) : Qc := 1%Qc.

Example C09_example :
  List.length ex_sets = 1%nat ∧ sat ex_rho ex_rows ∧ ¬ sat ones ex_rows.
Proof.
  split; [vm_compute; reflexivity|].
  split; [apply sat_forallb; by vm_compute|intros Hs%sat_forallb; by vm_compute in Hs].
Qed.
Print Assumptions C09_example.

Theorem C09_join_injective (p q : list (list ascii)) :
  path_ok dot p → path_ok dot q → sjoin p = sjoin q → p = q.
Proof. exact (join_inj dot p q). Qed.
Print Assumptions C09_join_injective.

(* the segment-prefix test as tree.py could write it: q.startswith(p + ".") *)
Theorem C09_prefix_with_separator (p q : list (list ascii)) :
  path_ok dot p → path_ok dot q → p ≠ [] →
  (sjoin p ++ [dot]) `prefix_of` sjoin q ↔ ∃ r, r ≠ [] ∧ q = p ++ r.
Proof. exact (prefix_sep_iff dot p q). Qed.
Print Assumptions C09_prefix_with_separator.

(* the variant without the trailing separator is wrong: "port1" is a string prefix of "port10.i"
   although [port1] is not a segment prefix of [port10; i] *)
Theorem C09_bare_prefix_refuted :
  ∃ conn fv q, name_ok conn ∧ seg_ok dot fv ∧ name_ok q ∧
    hits TPrefixBare conn fv (sjoin q) = true ∧ ¬ conn `prefix_of` q.
Proof.
  exists [lit "port1"], (lit "i"), [lit "port10"; lit "i"].
  split; [split; [done|]; repeat constructor; by apply seg_okb_ok|].
  split; [by apply seg_okb_ok|].
  split; [split; [done|]; repeat constructor; by apply seg_okb_ok|].
  split; [by vm_compute|].
  intros [k E]. simpl in E. injection E as E _. vm_compute in E. discriminate E.
Qed.
Print Assumptions C09_bare_prefix_refuted.

(* the name test that vlib/c09.py accepts at the zero-default bookkeeping site (exact key conn + "." + var,
   separator '.') removes exactly the entry of that flow variable *)
Theorem C09_name_test_sound (t : name_test) (sep : ascii) :
  accepted t sep = true →
  sep = dot ∧ ∀ conn fv q, name_ok conn → seg_ok dot fv → name_ok q →
    hits t conn fv (sjoin q) = true ↔ q = conn ++ [fv].
Proof.
  destruct t; [|done..]. intros ->%bool_decide_eq_true. split; [done|].
  intros. by apply exact_test_sound.
Qed.
Print Assumptions C09_name_test_sound.

(* string-level connection sets: two string keys share a set iff the STRUCTURED keys are related
   by the equivalence closure of the structured connect pairs *)
Theorem C09_string_partition (flows : list (list ascii)) (cs : list fclauseP) (a b : list (list ascii) * bool) :
  Forall clause_ok cs → mentioned (flow_pairs cs) a → name_ok b.1 →
  (∃ S, S ∈ sets_of (fc (run_clauses flows (map renC cs))) ∧ keyS a ∈ S ∧ keyS b ∈ S) ↔
  eqv (flow_pairs cs) a b.
Proof.
  intros Hcs Ha Hb. rewrite fc_run_clauses.
  etrans; [by apply share_iff_eqv, mentioned_keyS|by apply eqv_keyS].
Qed.
Print Assumptions C09_string_partition.

(* end to end at string level: for every instance tree whose identifiers are non-empty and contain
   no '.', the rows emitted when names are dot-joined strings compared as strings have exactly the
   solutions of the connection semantics over the structured names (valuation read through join) *)
Theorem C09_string_model_rows (i : inst (list ascii)) (ρ : list ascii → Qc) :
  inst_ok i →
  sat ρ (rowsS i) ↔
  pot_spec (pot_pairs (fcP [] i)) (ρ ∘ sjoin) ∧
  flow_spec (ffP [] i) (flow_pairs (fcP [] i)) (ρ ∘ sjoin).
Proof.
  intros Hi. destruct (flat_ok i [] ltac:(constructor) Hi) as [Hcs Hfl].
  unfold rowsS, model_rows. rewrite flat_clauses_str, flat_flows_str.
  by apply string_level_correct.
Qed.
Print Assumptions C09_string_model_rows.

(* non-vacuity at string level: top-level connectors port1 (connected to t) and port10 (not
   connected); identifiers are legal, and the string-level rows contain port10.i = 0 *)
Definition ex_spin : list (list ascii * kind) := [(lit "v", KPot); (lit "i", KFlow)].
Definition ex_s : inst (list ascii) :=
  Inst [(lit "port1", ex_spin); (lit "port10", ex_spin); (lit "t", ex_spin)] []
       [Clause (CRef None (lit "port1")) (CRef None (lit "t")) ex_spin].
Example C09_string_example :
  inst_ok ex_s ∧ zero_row (lit "port10.i") ∈ rowsS ex_s ∧ zero_row (lit "port1.i") ∉ rowsS ex_s.
Proof.
  split.
  { simpl. unfold vars_ok, ex_spin.
    repeat first [ apply seg_okb_ok; vm_compute; reflexivity | split | constructor ]. }
  (* after `pattern` the rows are the argument of a redex: one evaluation serves both memberships *)
  apply (bool_decide_unpack _). pattern (rowsS ex_s). by vm_compute.
Qed.
Print Assumptions C09_string_example.

(* array elements: the five core theorems at Sg := iseg (identifier with integer subscripts) *)
Theorem C09_partition_indexed (flows : list ivar) (cs : list fclauseI) :
  let P := flow_pairs cs in
  let sets := sets_of (fc (run_clauses flows cs)) in
  NoDup sets ∧
  (∀ S T, S ∈ sets → T ∈ sets → S ≠ T → S ## T) ∧
  (∀ S, S ∈ sets → ∃ k, mentioned P k ∧ k ∈ S ∧ ∀ v, v ∈ S ↔ eqv P k v) ∧
  (∀ k, mentioned P k → ∃ S, S ∈ sets ∧ k ∈ S) ∧
  (∀ a b, mentioned P a → (∃ S, S ∈ sets ∧ a ∈ S ∧ b ∈ S) ↔ eqv P a b).
Proof. exact (C09_partition flows cs). Qed.
Print Assumptions C09_partition_indexed.

Theorem C09_flow_indexed (flows : list ivar) (cs : list fclauseI) (ρ : ivar → Qc) :
  sat ρ (flow_eqs flows cs) ↔ flow_spec flows (flow_pairs cs) ρ.
Proof. exact (C09_flow flows cs ρ). Qed.
Print Assumptions C09_flow_indexed.

Theorem C09_potential_indexed (cs : list fclauseI) (ρ : ivar → Qc) :
  sat ρ (pot_eqs cs) ↔ ∀ a b, eqv (pot_pairs cs) a b → ρ a = ρ b.
Proof. exact (C09_potential cs ρ). Qed.
Print Assumptions C09_potential_indexed.

Theorem C09_model_rows_indexed (i : inst iseg) (ρ : ivar → Qc) :
  sat ρ (model_rows i) ↔
  pot_spec (pot_pairs (flat_clauses [] i)) ρ ∧
  flow_spec (flat_flows [] i) (flow_pairs (flat_clauses [] i)) ρ.
Proof. exact (C09_model_rows i ρ). Qed.
Print Assumptions C09_model_rows_indexed.

Theorem C09_sharing_invariant_indexed (flows : list ivar) (cs : list fclauseI) :
  let m := fc (run_clauses flows cs) in
  ∀ k S, m !! k = Some S → k ∈ S ∧ ∀ v, v ∈ S → m !! v = Some S.
Proof. exact (C09_sharing_invariant flows cs). Qed.
Print Assumptions C09_sharing_invariant_indexed.

(* the implementation removes zero defaults by array NAME (model_rows_byname).  When every array is
   connected all-or-none this has exactly the solutions of the connection semantics ... *)
Theorem C09_byname_all_or_none (i : inst iseg) (ρ : ivar → Qc) :
  all_or_none (flat_flows [] i) (flow_pairs (flat_clauses [] i)) →
  sat ρ (model_rows_byname i) ↔
  pot_spec (pot_pairs (flat_clauses [] i)) ρ ∧
  flow_spec (flat_flows [] i) (flow_pairs (flat_clauses [] i)) ρ.
Proof. intros Han. apply sat_expand_rows. intros n. by apply byname_members. Qed.
Print Assumptions C09_byname_all_or_none.

(* ... and without that hypothesis it does not:  Pin t[2]; Pin u; connect(t[1], u)
   leaves t[2].i free — a valuation with t[2].i = 1 satisfies the by-name rows, not the semantics *)
Definition ex_ipin : list (iseg * kind) := [((10%positive, []), KPot); ((11%positive, []), KFlow)].
Definition ex_t : inst iseg :=
  Inst [((20%positive, [1%Z]), ex_ipin); ((20%positive, [2%Z]), ex_ipin); ((21%positive, []), ex_ipin)] []
       [Clause (CRef None (20%positive, [1%Z])) (CRef None (21%positive, [])) ex_ipin].
Definition ex_irho (v : ivar) : Qc :=
  if decide (v = [(20%positive, [2%Z]); (11%positive, [])]) then 1%Qc else 0%Qc.
Definition ex_rows_byname : list (list (ivar * Z)) := model_rows_byname ex_t.
Definition ex_rows_exact : list (list (ivar * Z)) := model_rows ex_t.

Theorem C09_byname_refuted : sat ex_irho ex_rows_byname ∧ ¬ sat ex_irho ex_rows_exact.
Proof. split; [apply sat_forallb; by vm_compute|intros Hs%sat_forallb; by vm_compute in Hs]. Qed.
Print Assumptions C09_byname_refuted.
