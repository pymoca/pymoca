(* C11 — DAE residual equals the Modelica meaning of the flat equations.
   Property theorems; the proofs live in Proofs/C11_residual.v (expressions, equations, ranges),
   Proofs/C11_functions.v (algorithm sections, calls) and Proofs/C11_arrays.v (array equations); the concrete
   witnesses are evaluated here.  The relations and side conditions the statements use beyond the model
   (enc_rel, env_rel, agrees, eqn_wf, small, stmt_ok, init_rel, func_ok, mat_rel) and the witness tables and
   programs are defined in those files, next to their lemmas.

   Everything is stated for ANY operator table T satisfying the decidable side condition
   `table_ok T = true`; vlib/c11.py regenerates T from generator.py (OP_MAP) and the installed
   casadi (hasattr(MX, method)) on every run and discharges the side condition by vm_compute
   (the Eval at the end of run/C11/Gen.v).  F (elementary functions) is arbitrary. *)
From Coq Require Import ZArith QArith Qcanon List Bool Lia.
From PV Require Import Model.C11_residual Proofs.C11_residual Model.C11_functions Proofs.C11_functions
  Model.C11_arrays Proofs.C11_arrays Model.C11_cases.
Import ListNotations.
Open Scope Qc_scope.

(* Expressions.  (1) Soundness: whenever the generator produces a graph c for e, then at every
   evaluation point where the Modelica meaning of e is defined (no division by zero), CasADi's
   value of c is that meaning: the same number for Real expressions; for Boolean expressions a
   number >= 0 that is non-zero exactly when the Boolean is true (relations 0/1, and = product,
   or = sum, not = if_else(x,0,1)).  Subscripts: Modelica x[k] (1-based) reads CasADi element
   k-1; derivatives are independent inputs (env_rel).  (2) The generator does produce a graph
   for every expression without `<>` (and for all expressions once "<>" is in OP_MAP). *)
Theorem C11_expr (F : positive -> Qc -> Qc) (T : table) (rm : menv) (rc : cenv) (e : expr) :
  table_ok T = true -> env_rel rm rc ->
  (forall c, tr T e = Ok c ->
     forall v, m_eval F e rm = Some v -> exists w, ca_eval F c rc = Some w /\ enc_rel v w) /\
  (ne_ok T = true \/ ne_free e = true -> exists c, tr T e = Ok c).
Proof.
  intros HT HE. split; [exact (expr_sound F T HT rm rc HE e) | exact (tr_total T HT e)].
Qed.
Print Assumptions C11_expr.

(* Equations: simple equations (lhs - rhs), if-equations with else branch (first true
   condition selects the block), for-equations over lo:hi (every i in lo..hi, 1-based array
   elements x[i+k]; lo:st:hi with any non-zero step).  The residual block CasADi evaluates has one
   entry per flat Real equation, and each entry equals lhs - rhs under Modelica semantics wherever
   that is defined.
   (For a for-equation the entries are listed equation-major, as m_res states.) *)
Theorem C11_residual (F : positive -> Qc -> Qc) (T : table) (rm : menv) (rc : cenv) (q : eqn) :
  table_ok T = true -> env_rel rm rc ->
  (forall r, tr_eqn T q = Ok r ->
     forall ms, m_res F q rm = Some ms ->
       exists cs, ca_res F r rc = Some cs /\ Forall2 agrees ms cs) /\
  (eqn_wf q -> ne_ok T = true \/ eqn_ne_free q = true -> exists r, tr_eqn T q = Ok r).
Proof.
  intros HT HE. split.
  - intros r Hr ms Hm. exact (eqn_sound F T HT rm rc HE q r ms Hr Hm).
  - exact (tr_eqn_total T HT q).
Qed.
Print Assumptions C11_residual.

(* Totality: with "<>" mapped, every operator of the grammar has an existing MX method and
   translation never fails ... *)
Theorem C11_total (T : table) :
  table_ok T = true -> ne_ok T = true -> table_total T = true /\ forall e, exists c, tr T e = Ok c.
Proof.
  intros HT N. split; [exact (table_ok_total T HT N) |]. intro e. apply (tr_total T HT e). left. exact N.
Qed.
Print Assumptions C11_total.

(* ... the OP_MAP of HEAD satisfies all of it, while the table before commit 1779c2f
   ("/" -> __div__, which casadi.MX does not have) fails on any division *)
Theorem C11_total_fixed_table :
  table_ok good_table = true /\ ne_ok good_table = true /\ table_total good_table = true /\
  tr prefix_table (EBin BDiv (ERef (RVar 1%positive)) (ERef (RVar 2%positive))) = Err E_nomethod.
Proof.
  destruct good_table_total as [H1 H2].
  split; [exact good_table_ok | split; [exact H1 | split; [exact H2 | vm_compute; reflexivity]]].
Qed.
Print Assumptions C11_total_fixed_table.

(* before e57542a Modelica's inequality `a <> b` reached the generator as operator "<>", which
   OP_MAP lacked (it only had an unreachable "!=" key): generation failed.  C11_expr /
   C11_residual hold for that table too, carving out exactly `<>`. *)
Theorem C11_total_refuted_ne :
  table_ok pre_ne_table = true /\ ne_ok pre_ne_table = false /\
  exists e, tr pre_ne_table e = Err E_notable.
Proof.
  split; [vm_compute; reflexivity | split; [vm_compute; reflexivity |]].
  exists (EBin BNe (ERef (RVar 1%positive)) (ERef (RVar 2%positive))). vm_compute. reflexivity.
Qed.
Print Assumptions C11_total_refuted_ne.

(* affine loop subscripts x[a*i + b] (a, b any integers, a may be negative or zero) are part of
   expr (RAff), so C11_expr / C11_residual cover them: the for-equation residual is the body
   instantiated at each range value v with subscript a*v + b.  Spelled out for the subscript: *)
Theorem C11_affine_subscript (rm : menv) (rc : cenv) (x : positive) (a b v : Z) :
  env_rel rm rc -> c_sym (tr_ref (RAff x a b)) (with_ci rc v) = m_arr rm x (a * v + b).
Proof. intros (_ & _ & H3 & _). simpl. apply H3. Qed.
Print Assumptions C11_affine_subscript.

(* for i in lo:hi visits exactly lo..hi *)
Theorem C11_loop_range (lo hi v : Z) : In v (range_values lo 1 hi) <-> (lo <= v <= hi)%Z.
Proof.
  unfold range_values. rewrite arange_incl by discriminate. rewrite Z.div_1_r, in_map_iff. split.
  - intros (k & <- & Hk). apply in_seq in Hk. lia.
  - intro H. exists (Z.to_nat (v - lo)). split; [lia | apply in_seq; lia].
Qed.
Print Assumptions C11_loop_range.

(* three-part ranges (repaired in 3facb7b): for every non-zero step - positive or negative,
   dividing the span or not - the values the generator loops over are exactly the Modelica range
   lo, lo+st, ..., not beyond hi.  C11_residual uses this: m_res ranges over modelica_range. *)
Theorem C11_three_part_range (lo st hi : Z) :
  st <> 0%Z -> range_values lo st hi = modelica_range lo st hi.
Proof. exact (range_values_modelica lo st hi). Qed.
Print Assumptions C11_three_part_range.

(* the reading of the tree before 3facb7b (a:b:c as start:stop:step) is refuted by 1:2:5 *)
Theorem C11_three_part_range_old_reading_refuted :
  exists a b c, old_range3 a b c <> modelica_range a b c.
Proof.
  exists 1%Z, 2%Z, 5%Z. vm_compute. intro H. discriminate H.
Qed.
Print Assumptions C11_three_part_range_old_reading_refuted.

(* User functions with algorithm sections: assignment, if/elseif/else and for-statements.
   sq says which exitIfStatement the tree has (probed on every run; HEAD: true).  For a body whose
   statements are well-formed (stmt_ok: program variables only, i.e. numbered below 1000 (`small`), the
   temporaries of the repaired exitIfStatement being numbered x + 1000; loop bodies are lists of
   assignments that may read each other's results; if-statements - only for the repaired
   translation sq = true - whose branches assign subsets of the variables of the first branch),
   if the generator produces the assignment list l (loops unrolled iteration-major with the index
   bound per iteration; if-statements: every branch executed on its own by sequential
   substitution, merged with if_else on the pre-if conditions, assigned to fresh temporaries and
   then simultaneously to the variables), then after get_function's sequential substitution the
   symbolic value of EVERY program variable, evaluated at the input point, is the value the
   Modelica sequential execution `exec` leaves in that variable.
   Not covered: nested statements inside if/for bodies (not in the model; pymoca does not support
   them inside for-statements either). *)
Theorem C11_function (F : positive -> Qc -> Qc) (T : table) (sq : bool) (body : list stmt) (l : list cassign)
        (rm rm' : menv) (rc : cenv) :
  table_ok T = true -> Forall (stmt_ok sq) body -> init_rel rm rc ->
  tr_stmts T sq body = Ok l -> exec F body rm = Some rm' ->
  forall x, small x -> exists q, m_sc rm' x = VNum q /\ ca_eval F (apply_assigns l sigma0 x) rc = Some q.
Proof. intros HT Hok Hi Htr Hex. exact (function_sound F T HT sq body l rm rc rm' Hok Hi Htr Hex). Qed.
Print Assumptions C11_function.

(* The call site.  For `(y1, .., yk) = f(args)` (k may be smaller than the number of outputs:
   the remaining outputs are discarded): if the generator produces the residual r for the call
   equation, then wherever the Modelica meaning is defined (arguments evaluate, the algorithm
   section executes) r is defined and its j-th entry is y_j minus the j-th output of the
   sequential execution of f on the argument values.  Composes C11_expr (arguments) with
   C11_function (body). *)
Theorem C11_call_residual (F : positive -> Qc -> Qc) (T : table) (sq : bool) (rm : menv) (rc : cenv)
        (lhs : list positive) (f : func) (args : list expr) (r : option (list (option Qc))) (ms : list (option Qc)) :
  table_ok T = true -> env_rel rm rc -> func_ok sq f ->
  ca_call_res F T sq (lhs, f, args) rc = Ok r -> m_call_res F (lhs, f, args) rm = Some ms ->
  exists cs, r = Some cs /\ Forall2 agrees ms cs.
Proof. intros HT HE Hf. exact (call_sound F T HT sq rm rc HE lhs f args r ms Hf). Qed.
Print Assumptions C11_call_residual.

(* the order of the unrolled assignments is what the theorem is about: for
   `for i in 1:2 loop a := a + i*b; b := a - b; end for` from a = b = 1 the sequential result is
   a = 4, b = 3, the iteration-major unrolling of the generator gives the same, and the
   statement-major unrolling (seeded change m2) gives b = 1 *)
Theorem C11_function_order :
  match tr_assigns good_table order_body with
  | Ok cb =>
      val_is (exec (fun _ q => q) [SFor 1 1 2 order_body] order_rm) 1%positive 4 = true /\
      val_is (exec (fun _ q => q) [SFor 1 1 2 order_body] order_rm) 2%positive 3 = true /\
      qc_is (ca_eval (fun _ q => q) (apply_assigns (unroll [1; 2]%Z cb) sigma0 1%positive) order_rc) 4 = true /\
      qc_is (ca_eval (fun _ q => q) (apply_assigns (unroll [1; 2]%Z cb) sigma0 2%positive) order_rc) 3 = true /\
      qc_is (ca_eval (fun _ q => q) (apply_assigns (unroll_stmt_major [1; 2]%Z cb) sigma0 2%positive) order_rc) 1 = true
  | Err _ => False
  end.
Proof. vm_compute. repeat split; reflexivity. Qed.
Print Assumptions C11_function_order.

(* The exitIfStatement that merges one if_else per variable (sq = false; the tree before the
   repair fixes/C11_if_statement_sequential) does not translate if-statements sequentially.  Witness:
   `if a > 0 then a := a - 5; b := 1; else a := a; b := 2; end if` from a = b = 3: sequential
   execution gives a = -2, b = 1; the function that translation builds gives b = 2 (b's condition
   sees the updated a).  C11_function therefore covers if-statements for sq = true only (stmt_ok). *)
Theorem C11_function_if_refuted :
  match tr_stmts good_table false [ifdep_stmt] with
  | Ok l =>
      val_is (exec (fun _ q => q) [ifdep_stmt] ifdep_rm) 1%positive (-2) = true /\
      val_is (exec (fun _ q => q) [ifdep_stmt] ifdep_rm) 2%positive 1 = true /\
      qc_is (ca_eval (fun _ q => q) (apply_assigns l sigma0 1%positive) ifdep_rc) (-2) = true /\
      qc_is (ca_eval (fun _ q => q) (apply_assigns l sigma0 2%positive) ifdep_rc) 2 = true
  | Err _ => False
  end.
Proof. vm_compute. repeat split; reflexivity. Qed.
Print Assumptions C11_function_if_refuted.

(* ... and the repaired translation (fixes/C11_if_statement_sequential, sq = true) gives the
   sequential result on that witness: a = -2, b = 1 *)
Theorem C11_function_if_repaired_witness :
  match tr_stmts good_table true [ifdep_stmt] with
  | Ok l =>
      qc_is (ca_eval (fun _ q => q) (apply_assigns l sigma0 1%positive) ifdep_rc) (-2) = true /\
      qc_is (ca_eval (fun _ q => q) (apply_assigns l sigma0 2%positive) ifdep_rc) 1 = true
  | Err _ => False
  end.
Proof. vm_compute. split; reflexivity. Qed.
Print Assumptions C11_function_if_repaired_witness.

(* non-vacuity: the witness if-statement satisfies the hypothesis of C11_function for sq = true *)
Example C11_function_if_example : stmt_ok true ifdep_stmt.
Proof.
  split; [reflexivity |]. split; [repeat constructor | split; [repeat constructor |]].
  apply Forall_cons; [intros x H; exact H | apply Forall_cons; [intros x H; exact H | apply Forall_nil]].
Qed.
Print Assumptions C11_function_if_example.

(* Array equations (vectors, matrices, slices A[lo:hi, k], A[:, k], A[k, :], v[lo:hi], three-part
   slices v[lo:st:hi], + - .*, unary minus, scalar * array, matrix product, transpose): if the generator produces the residual graph c for
   `l = r` (exitEquation incl. the implicit transpose of a row against a column) and CasADi
   evaluates it to v, then veccat(v) - column-major - is the list of lhs - rhs of the flat
   equations in column-major order.  In particular a square matrix equation is never transposed.
   (Soundness form: that the CasADi evaluation IS defined whenever the shapes are Modelica-legal
   is checked by the correspondence, not proved.) *)
Theorem C11_matrix_residual (F : positive -> Qc -> Qc) (decl : positive -> mshape) (T : table)
        (mm : menv2) (cm : cenv2) (rm : menv) (rc : cenv) (l r : aexpr) (c : caa) (L : list Qc) (v : cmat) :
  table_ok T = true -> env_rel rm rc -> mat_rel mm cm ->
  tr_aeq decl T l r = Ok c -> m_ares F decl l r mm rm = Some L -> ca_aeval F c cm rc = Some v ->
  c_flat v = L.
Proof. intros HT HE HM. exact (aeq_sound F decl T HT mm cm rm rc HE HM l r c L v). Qed.
Print Assumptions C11_matrix_residual.

Theorem C11_square_not_transposed :
  match tr_aeq sq_decl good_table (AVar 1%positive) (AVar 2%positive) with
  | Ok (CABin ASub (CASymM _ _ _) (CASymM _ _ _)) => True
  | _ => False
  end.
Proof. vm_compute. exact I. Qed.
Print Assumptions C11_square_not_transposed.

(* non-vacuity: a concrete well-typed expression with or / and / not / relation / if, whose
   Modelica meaning is defined at a point related to a CasADi point *)
Definition ex_rm : menv :=
  {| m_sc := fun x => if Pos.eqb x 1 then VNum (Q2Qc (3 # 2)) else if Pos.eqb x 2 then VBool true else VNum 0;
     m_der := fun _ => 1; m_arr := fun _ k => z2q k; m_i := 2%Z |}.
Definition ex_rc : cenv :=
  {| c_sc := fun x => if Pos.eqb x 1 then Q2Qc (3 # 2) else if Pos.eqb x 2 then 1 else 0;
     c_der := fun _ => 1; c_arr := fun _ k0 => z2q (k0 + 1); c_i := 2%Z |}.
Definition ex_e : expr :=
  EIf [(EBin BOr (ERef (RVar 2%positive)) (EBin BAnd (EBin BGt (ERef (RVar 1%positive)) (ENum 1)) (EUn UNot (ERef (RVar 2%positive)))),
        EBin BDiv (ERef (RLoopIdx 5%positive 1%Z)) (ERef (RVar 1%positive)))]
      (ENum 0).
Example C11_example :
  env_rel ex_rm ex_rc /\
  typeof (fun x => if Pos.eqb x 2 then TBool else TReal) ex_e = Some TReal /\
  exists q, m_eval (fun _ q => q) ex_e ex_rm = Some (VNum q) /\ qeqb q (Q2Qc 2) = true.
Proof.
  split; [| split; [vm_compute; reflexivity | eexists; split; vm_compute; reflexivity]].
  split; [| split; [| split]].
  - intro x. unfold ex_rm, ex_rc. cbv beta iota delta [m_sc c_sc].
    destruct (Pos.eqb x 1); cbv beta iota; [reflexivity |]. destruct (Pos.eqb x 2); cbv beta iota; reflexivity.
  - intro x. reflexivity.
  - intros x k. simpl. f_equal. lia.
  - reflexivity.
Qed.
Print Assumptions C11_example.
