(* C17 — alias relation is a signed equivalence under any operation history.
   Property theorems only; proofs live in Proofs/C17_*.v. *)
From stdpp Require Import gmap.
From PV Require Import Lib.Closure Model.C17_alias Proofs.C17_alias Proofs.C17_canon Proofs.C17_remove.
From PV Require Import Model.C17_heap Proofs.C17_heap.

(* aliases() returns exactly the signed equivalence class: for every legal history of adds
   (no add relating a variable to its own negation), of any length, over any names *)
Theorem C17_aliases_closure (P : list (svar * svar)) (k v : svar) :
  legalR P empty_rel →
  v ∈ q_aliases (runR P empty_rel) k ↔ eqv (dbl P) k v.
Proof. exact (aliases_closure_rel P k v). Qed.
Print Assumptions C17_aliases_closure.

(* canonical_signed(): same class => same canonical name and sign; mirrored class => same
   name, opposite sign; and the canonical name (with that sign) is itself a member *)
Theorem C17_canonical_consistent (P : list (svar * svar)) (k v : svar) :
  legalR P empty_rel →
  let r := runR P empty_rel in
  (v ∈ q_aliases r k → q_canon r v = q_canon r k) ∧
  (tog v ∈ q_aliases r k → q_canon r v = flipc (q_canon r k)) ∧
  ((q_canon r k).2, (q_canon r k).1) ∈ q_aliases r k.
Proof. exact (canonical_consistent P k v). Qed.
Print Assumptions C17_canonical_consistent.

(* the structural invariants hold after every legal history of adds on one relation *)
Theorem C17_invariants (P : list (svar * svar)) :
  legalR P empty_rel → al_ok (runR P empty_rel) ∧ canon_ok (runR P empty_rel).
Proof. exact (runR_ok P empty_rel al_ok_empty canon_ok_empty). Qed.
Print Assumptions C17_invariants.

(* non-vacuity: a concrete legal history with a negative alias *)
Example C17_legal_example :
  legalR [((false, 1%positive), (true, 2%positive)); ((false, 3%positive), (false, 2%positive))] empty_rel.
Proof. vm_compute. repeat split; intros H; discriminate H. Qed.
Print Assumptions C17_legal_example.

(* every relation reachable by ANY legal history of add / remove / copy operations over any
   number of relations (legal = no Add relates a variable to its own negation) satisfies all
   invariants: aliases() is a partition closed under negation with no variable aliased to its own
   negation, and canonical_signed() is class-consistent with consistent signs *)
Theorem C17_history_invariants (ops : list op) :
  legal_ops [empty_rel] ops → Forall (fun r => al_ok r ∧ canon_ok r) (run_ops ops).
Proof. exact (history_invariants ops). Qed.
Print Assumptions C17_history_invariants.

(* remove(a) of a canonical variable resets exactly its class and the mirror class to
   singletons (aliases and canonical names), leaves every other answer unchanged, and drops a
   from the canonical set *)
Theorem C17_remove (r : rel) (p : positive) (k : svar) : al_ok r ∧ canon_ok r → p ∈ cv r →
  let R := q_aliases r (false, p) ∪ q_aliases r (true, p) in
  (k ∈ R → q_aliases (remove r (false, p)) k = {[k]} ∧ q_canon (remove r (false, p)) k = (k.2, k.1)) ∧
  (k ∉ R → q_aliases (remove r (false, p)) k = q_aliases r k ∧ q_canon (remove r (false, p)) k = q_canon r k) ∧
  cv (remove r (false, p)) = cv r ∖ {[p]}.
Proof. intros _. exact (remove_spec r p k). Qed.
Print Assumptions C17_remove.

(* a copy evolves independently of its source: an operation addressed to relation i changes no
   other existing relation, and a fresh copy equals its source (value level; the sharing of the
   Python set objects is the subject of the heap level below) *)
Theorem C17_copy_independent (rs : list rel) (o : op) (j : nat) (r : rel) :
  rs !! j = Some r →
  match o with Add i _ _ | Remove i _ => i ≠ j | Copy _ => True end →
  step rs o !! j = Some r.
Proof. exact (step_frame rs o j r). Qed.
Print Assumptions C17_copy_independent.

Theorem C17_copy_equal (rs : list rel) (i : nat) (r : rel) :
  rs !! i = Some r → step rs (Copy i) !! length rs = Some r.
Proof. exact (copy_equal rs i r). Qed.
Print Assumptions C17_copy_equal.

(* ================= heap level: the sharing of Python's mutable set objects =================
   Model/C17_heap.v models `_aliases` as key -> location -> set, in-place `|=`, fresh `{a}`
   objects from aliases(), the re-pointing loop, and copy() giving every key its own fresh cell.
   `hrun ops` runs a history there; `run_ops ops` runs it on the value-level model above. *)

(* LOCK-STEP REFINEMENT: after ANY legal history of add / remove / copy over any number of
   relations, every relation of the heap-level world answers aliases(), canonical_signed() and
   canonical_variables exactly like the value-level relation with the same index — so what is
   proved above of the relations of run_ops (invariants, remove, copy independence) holds of the
   model with real object sharing (the closure and canonical-consistency theorems are about
   runR, which no theorem relates to run_ops) *)
Theorem C17_heap_refines (ops : list op) : legal_ops [empty_rel] ops →
  ∀ (i : nat) (hr : hrel) (r : rel), rels (hrun ops) !! i = Some hr → run_ops ops !! i = Some r →
  (∀ k : svar, hcls (hrun ops) hr k = cls (al r) k) ∧ hcm hr = cm r ∧ hcv hr = cv r.
Proof. exact (heap_refines ops). Qed.
Print Assumptions C17_heap_refines.

(* ... and both runs have the same number of relations (the refinement is not vacuous) *)
Theorem C17_heap_same_length (ops : list op) : legal_ops [empty_rel] ops →
  length (rels (hrun ops)) = length (run_ops ops).
Proof. exact (heap_same_length ops). Qed.
Print Assumptions C17_heap_same_length.

(* the sharing discipline in every reachable state: a set object is never reachable from two
   different relations (OWNERSHIP), two keys of one relation that share an object are aliases of
   each other (SHARERS ARE MEMBERS), and every stored pointer is allocated and below `next` *)
Theorem C17_heap_sharing (ops : list op) : legal_ops [empty_rel] ops →
  let w := hrun ops in
  (∀ (i j : nat) (h1 h2 : hrel) (k1 k2 : svar) (l : loc),
     rels w !! i = Some h1 → rels w !! j = Some h2 →
     ptr h1 !! k1 = Some l → ptr h2 !! k2 = Some l → i = j ∧ k2 ∈ hcls w h1 k1) ∧
  (∀ (i : nat) (hr : hrel) (k : svar) (l : loc),
     rels w !! i = Some hr → ptr hr !! k = Some l → (l < next w)%positive ∧ is_Some (heap w !! l)).
Proof. exact (heap_sharing ops). Qed.
Print Assumptions C17_heap_sharing.

(* after Copy i the new relation has the source's keys, canonical data and aliases() values, and
   its pointers are pairwise distinct, freshly allocated cells, disjoint from every older relation's *)
Theorem C17_heap_copy_fresh (ops : list op) (i : nat) (hr : hrel) : legal_ops [empty_rel] ops →
  let w := hrun ops in
  let w' := hstep w (Copy i) in
  rels w !! i = Some hr →
  ∃ hr' : hrel, rels w' = rels w ++ [hr'] ∧
    hcm hr' = hcm hr ∧ hcv hr' = hcv hr ∧
    (∀ k : svar, ptr hr' !! k = None ↔ ptr hr !! k = None) ∧
    (∀ k : svar, hcls w' hr' k = hcls w hr k) ∧
    (∀ (k1 k2 : svar) (l : loc), ptr hr' !! k1 = Some l → ptr hr' !! k2 = Some l → k1 = k2) ∧
    (∀ (k : svar) (l : loc), ptr hr' !! k = Some l →
       (next w ≤ l)%positive ∧ (l < next w')%positive ∧ heap w !! l = None ∧ is_Some (heap w' !! l)) ∧
    (∀ (j : nat) (hrj : hrel) (k k' : svar) (l : loc),
       rels w !! j = Some hrj → ptr hrj !! k = Some l → ptr hr' !! k' ≠ Some l).
Proof. exact (heap_copy_fresh ops i hr). Qed.
Print Assumptions C17_heap_copy_fresh.

(* the mutant "shallow copy()" (Copy shares the source's pointers) does NOT refine the value
   level: witness [add(x1,x2); copy; add(x1,x3) on the source], observed on the copy *)
Theorem C17_shallow_copy_refuted :
  ∃ ops : list op, legal_ops [empty_rel] ops ∧
    ¬ (∀ (i : nat) (hr : hrel) (r : rel),
         rels (hrun_shallow ops) !! i = Some hr → run_ops ops !! i = Some r →
         (∀ k : svar, hcls (hrun_shallow ops) hr k = cls (al r) k) ∧ hcm hr = cm r ∧ hcv hr = cv r).
Proof. exact shallow_copy_refuted. Qed.
Print Assumptions C17_shallow_copy_refuted.

(* that same history is legal, and with the faithful copy() relation 1 agrees (refines_atb
   is also true of a missing relation; existence is C17_heap_copy_fresh) *)
Example C17_heap_example :
  let a : svar := (false, 1%positive) in let b : svar := (false, 2%positive) in let c : svar := (false, 3%positive) in
  let ops := [Add 0 a b; Copy 0; Add 0 a c] in
  refines_atb (hrun ops) (run_ops ops) 1 a = true ∧ legal_opsb [empty_rel] ops = true.
Proof. exact deep_copy_same_history_ok. Qed.
Print Assumptions C17_heap_example.
