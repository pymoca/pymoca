(* C22 — delay durations are validated and delay arguments preserved.
   The predicates the statements use (`bad_sym`, `good_sym`, `wf`, `no_loop_dep`, `agree_on`, `nd`; `app_seq`,
   `compose_all`, `bad_s`, `good_s`) are defined in Proofs/C22_delay.v and Proofs/C22_simplify.v.
   All statements are over arbitrary models: any declarations, equations / for-equations, (nested) delay
   calls, expression trees over +, -, *, unary -, if-expressions, abs, min, max.
   "Depends on" = occurrence of the symbol after the
   construction-time folding `norm` (deps e = fsyms (norm e)). *)
From Coq Require Import ZArith List Bool.
From PV Require Import Model.C22_delay Proofs.C22_delay Model.C22_simplify Proofs.C22_simplify.
Import ListNotations.

(* Rejected exactly when some duration depends on time, a state, a derivative of a state, an algebraic
   variable or a non-fixed input (declared, or the delayed-state input of another delay call).
   No hypothesis at all: the disallowed list of _post_checks IS these categories. *)
Theorem C22_decision (m : model) :
  accepts m = false <->
  exists r s, In r (delays m) /\ In s (deps (dr_dur r)) /\ bad_sym m s.
Proof. exact (accepts_false_iff m). Qed.
Print Assumptions C22_decision.

(* Accepted exactly when every duration depends only on constants, parameters and fixed inputs — for
   well-formed inputs (distinct ids, all below the delayed-state ids; durations mention declared names,
   der() only of states) and under the hypothesis that carves out the known findings
   loop-indexed-duration-*: no duration mentions the loop index or a loop-indexed variable.
   Without the carving hypothesis the placeholders count as harmless
   (second conjunct), which is the defect. *)
Theorem C22_accept (m : model) :
  wf m ->
  (no_loop_dep m ->
   (accepts m = true <-> forall r s, In r (delays m) -> In s (deps (dr_dur r)) -> good_sym m s)) /\
  (accepts m = true <->
   forall r s, In r (delays m) -> In s (deps (dr_dur r)) -> good_sym m s \/ is_loop_sym s = true).
Proof. intro Hw. split; [exact (accept_carved m Hw) | exact (accept_main m Hw)]. Qed.
Print Assumptions C22_accept.

(* Semantic reading of acceptance: the value of every duration of an accepted model is the same under
   any two valuations that agree outside time / states / derivatives / algebraic variables / non-fixed
   inputs.  (norm preserves values; values depend only on occurring symbols.) *)
Theorem C22_accept_semantic (m : model) (r : drec) (en1 en2 : envd) (i : nat) :
  accepts m = true -> In r (delays m) ->
  (forall s, ~ bad_sym m s -> agree_on en1 en2 s) ->
  eval en1 i (dr_dur r) = eval en2 i (dr_dur r).
Proof.
  intros Ha Hr Hag. apply eval_deps, Forall_forall. intros s Hs. apply Hag.
  exact (proj1 (accepts_true_iff m) Ha r s Hr Hs).
Qed.
Print Assumptions C22_accept_semantic.

(* For a generated, accepted model whose outputs are closed (func_ok; see C22_arguments_refuted) the
   delay-argument function returns, per valuation, 2n outputs for n delay calls: output 2k is the k-th
   delayed expression, output 2k+1 its duration, in creation order.  Outside loops and for non-indexed
   loop delays the expression entry is the single value; for an indexed delay in `for i in lo:hi` it is
   the column of hi-lo+1 values, entry j = the expression at i = lo+j; the duration is one value. *)
Theorem C22_arguments (m : model) (pts : list envd) :
  gen_ok m = true -> accepts m = true -> func_ok m = true ->
  outcome m pts = OAcc (map (outputs m) pts) /\
  (forall en, length (outputs m en) = 2 * length (delays m)) /\
  (forall en k r, nth_error (delays m) k = Some r ->
     nth_error (outputs m en) (2 * k) = Some (expr_entry en r) /\
     nth_error (outputs m en) (2 * k + 1) = Some [eval en 0 (dr_dur r)] /\
     (indexed r = false -> expr_entry en r = [eval en 0 (dr_expr r)]) /\
     (forall lo hi, indexed r = true -> dr_loop r = Some (lo, hi) ->
        length (expr_entry en r) = S hi - lo /\
        forall j, j < S hi - lo -> nth_error (expr_entry en r) j = Some (eval en (lo + j) (dr_expr r)))).
Proof.
  intros Hg Ha Hf. split; [|split].
  - unfold outcome. rewrite Hg, Ha, Hf. reflexivity.
  - intro en. exact (pairs_length (expr_entry en) (fun r => [eval en 0 (dr_dur r)]) (delays m)).
  - intros en k r Hk.
    destruct (pairs_nth (expr_entry en) (fun r => [eval en 0 (dr_dur r)]) (delays m) k r Hk) as [H1 H2].
    exact (conj H1 (conj H2 (expr_entry_shape en r))).
Qed.
Print Assumptions C22_arguments.

(* Creation order = post-order: as many delayed-state inputs as delay calls in the equations, the k-th
   is base+k, and a delay call is numbered after everything created before it and after the calls
   nested in its two operands; its record is appended last. *)
Theorem C22_creation_order (m : model) :
  length (delays m) = fold_right (fun q n => nd_eqn q + n) 0 (m_eqs m) /\
  (forall k, k < length (delays m) -> nth_error (delay_states m) k = Some (m_base m + k)) /\
  (forall loop a d st,
     fst (tr (m_base m) loop (Delay a d) st) = Ref (SVar (m_base m + (length st + nd a + nd d))) /\
     exists new x y, snd (tr (m_base m) loop (Delay a d) st) = st ++ new ++ [mkD x y loop] /\
                     length new = nd a + nd d).
Proof.
  split; [apply delays_length | split; [apply delay_states_nth | intros; apply tr_delay_id]].
Qed.
Print Assumptions C22_creation_order.

(* The full statement is false of the faithful model (known finding loop-indexed-duration-not-rejected):
   `for i in 2:3 loop hv[i] = uv[i]*p; yv[i] = delay(av[i]*p, av[i]); end for` — the duration depends on
   the algebraic variable av through av[i], and the model (like the code) accepts. *)
Definition refuting_model (dur : expr) : model :=
  mkModel [mkDecl 1 KPlain; mkDecl 2 KParam; mkDecl 3 (KInput false); mkDecl 4 KPlain; mkDecl 5 KPlain;
           mkDecl 6 KParam]
          [For 2 3 [(Ref (SLoop 5), Mul (Ref (SLoop 3)) (Ref (SVar 2)));
                    (Ref (SLoop 4), Delay (Mul (Ref (SLoop 1)) (Ref (SVar 2))) dur)]] 100.

Theorem C22_decision_refuted :
  exists m r v, In r (delays m) /\ In (SLoop v) (deps (dr_dur r)) /\ is_alg m v /\
                gen_ok m = true /\ accepts m = true.
Proof.
  exists (refuting_model (Ref (SLoop 1))),
         (mkD (Mul (Ref (SLoop 1)) (Ref (SVar 2))) (Ref (SLoop 1)) (Some (2, 3))), 1.
  split; [vm_compute; auto|]. split; [vm_compute; auto|]. split.
  - split; [exists (mkDecl 1 KPlain); vm_compute; auto|]. vm_compute. tauto.
  - split; vm_compute; reflexivity.
Qed.
Print Assumptions C22_decision_refuted.

(* ... and (known finding loop-indexed-duration-function-fails) a model whose only duration pv[i]
   depends on a parameter is accepted, but no delay-argument function is produced. *)
Theorem C22_arguments_refuted :
  exists m, (forall r s, In r (delays m) -> In s (deps (dr_dur r)) -> s = SLoop 6) /\
            declared m 6 KParam /\ gen_ok m = true /\ accepts m = true /\ func_ok m = false /\
            forall pts, outcome m pts = OFuncFail.
Proof.
  set (m := refuting_model (Ref (SLoop 6))).
  assert (Hg : gen_ok m = true) by (vm_compute; reflexivity).
  assert (Ha : accepts m = true) by (vm_compute; reflexivity).
  assert (Hf : func_ok m = false) by (vm_compute; reflexivity).
  exists m. split; [|split; [|split; [exact Hg | split; [exact Ha | split; [exact Hf|]]]]].
  - assert (E : delays m = [mkD (Mul (Ref (SLoop 1)) (Ref (SVar 2))) (Ref (SLoop 6)) (Some (2, 3))])
      by (vm_compute; reflexivity).
    rewrite E. intros r s [<- | []] [<- | []]. reflexivity.
  - exists (mkDecl 6 KParam). vm_compute. auto 8.
  - intro pts. unfold outcome. rewrite Hg, Ha, Hf. reflexivity.
Qed.
Print Assumptions C22_arguments_refuted.

(* non-vacuity: every category, a nested delay, a delay of a delayed value, a folded-away dependency,
   an indexed and a non-indexed loop delay; well-formed, carved, generated, accepted, closed; and the
   same model with one duration changed to der(x) is rejected. *)
Definition example_model (d : expr) : model :=
  mkModel [mkDecl 1 KConst; mkDecl 2 KParam; mkDecl 3 (KInput true); mkDecl 4 (KInput false);
           mkDecl 5 KPlain (* x, state *); mkDecl 6 KPlain (* a *); mkDecl 7 KPlain (* av *);
           mkDecl 8 KParam (* pv *); mkDecl 9 KPlain; mkDecl 10 KPlain; mkDecl 11 KPlain; mkDecl 12 KPlain]
          [Eq (Ref (SDer 5)) (Sub (Ref (SVar 4)) (Ref (SVar 5)));
           Eq (Ref (SVar 9)) (Delay (Add (Delay (Ref (SVar 5)) (Ref (SVar 2))) (Ref (SVar 6)))
                                    (Add (Mul (Ref (SVar 2)) (Num 2)) (Mul (Ref (SVar 6)) (Num 0))));
           For 2 3 [(Ref (SLoop 11), Add (Ref (SVar 5)) (Ref STime));
                    (Ref (SLoop 10), Delay (Mul (Ref (SLoop 7)) (Add (Ref (SVar 5)) (Ref STime))) (Elem 8 2));
                    (Ref (SLoop 12), Delay (Ref (SVar 6)) d)]] 100.

Example C22_example :
  let m := example_model (Mul (Ref (SVar 3)) (Ref (SVar 1))) in
  let en := mkEnv 7 [(5, [2]%Z); (6, [3]%Z); (7, [1; 10; 100]%Z); (8, [4; 5; 6]%Z); (2, [11]%Z); (3, [2]%Z);
                     (1, [3]%Z); (100, [9]%Z); (101, [8]%Z); (102, [1; 1]%Z); (103, [0]%Z)] [] in
  wf m /\ no_loop_dep m /\ gen_ok m = true /\ accepts m = true /\ func_ok m = true /\
  length (delays m) = 4 /\
  outputs m en = [[2]; [11]; [12]; [22]; [90; 900]; [5]; [3]; [6]]%Z /\
  accepts (example_model (Ref (SDer 5))) = false.
Proof.
  set (m := example_model _). set (en := mkEnv _ _ _).
  assert (E : delays m =
    [mkD (Ref (SVar 5)) (Ref (SVar 2)) None;
     mkD (Add (Ref (SVar 100)) (Ref (SVar 6)))
         (Add (Mul (Ref (SVar 2)) (Num 2)) (Mul (Ref (SVar 6)) (Num 0))) None;
     mkD (Mul (Ref (SLoop 7)) (Add (Ref (SVar 5)) (Ref STime))) (Elem 8 2) (Some (2, 3));
     mkD (Ref (SVar 6)) (Mul (Ref (SVar 3)) (Ref (SVar 1))) (Some (2, 3))]) by (vm_compute; reflexivity).
  split; [|split; [|repeat split; vm_compute; reflexivity]].
  - split; [|split].
    + exact (seq_NoDup 12 1).
    + intros d H. apply Nat.ltb_lt. revert d H. apply forallb_forall. reflexivity.
    + rewrite E. intros r s Hr Hs.
      destruct Hr as [<- | [<- | [<- | [<- | []]]]]; vm_compute in Hs;
        repeat (destruct Hs as [<- | Hs]); try contradiction;
        simpl; left; eexists; eapply find_declared; vm_compute; reflexivity.
  - intros r s Hr Hs.
    assert (H : forallb (fun r => forallb (fun s => negb (is_loop_sym s)) (deps (dr_dur r))) (delays m) = true)
      by (vm_compute; reflexivity).
    rewrite forallb_forall in H. specialize (H r Hr). rewrite forallb_forall in H.
    apply negb_true_iff. exact (H s Hs).
Qed.
Print Assumptions C22_example.

(* ================= simplification options: the delay arguments follow every substitution step ================= *)

(* For ANY list of steps (in particular any subset of the seven steps of _simplify_once, steps_of o) the delay
   arguments of the simplified model are the original ones with the steps' substitutions applied one after the
   other - equivalently with their composition as one substitution; loop tags untouched. *)
Theorem C22_delay_args_follow (fs : list step) (st : sst) :
  let ss := fst (run fs st) in
  st_args (snd (run fs st)) = map (rec_seq ss) (st_args st) /\
  (forall r, rec_seq ss r = mkD (app_seq ss (dr_expr r)) (app_seq ss (dr_dur r)) (dr_loop r)) /\
  (forall e, app_seq ss e = app_subst (compose_all ss) e).
Proof.
  cbv zeta. split; [apply run_args | split; [apply rec_seq_fields | apply app_seq_compose]].
Qed.
Print Assumptions C22_delay_args_follow.

(* ... and they keep their values: in every valuation in which the bindings of the applied substitutions hold
   (an eliminated variable equals its definition, a replaced constant / parameter its value) the k-th delayed
   expression and duration of the simplified model evaluate like the k-th original ones. *)
Theorem C22_delay_args_value (fs : list step) (st : sst) (en : envd) :
  (forall s, In s (fst (run fs st)) -> forall v x, lookup v s = Some x -> eval en 0 x = var_at en v 1) ->
  forall k r, nth_error (st_args st) k = Some r ->
  exists r', nth_error (st_args (snd (run fs st))) k = Some r' /\
             eval en 0 (dr_expr r') = eval en 0 (dr_expr r) /\
             eval en 0 (dr_dur r') = eval en 0 (dr_dur r) /\ dr_loop r' = dr_loop r.
Proof.
  intros H k r Hk. rewrite run_args. exists (rec_seq (fst (run fs st)) r).
  split; [rewrite nth_error_map, Hk; reflexivity|].
  rewrite rec_seq_fields. simpl. repeat split; apply app_seq_eval; exact H.
Qed.
Print Assumptions C22_delay_args_value.

(* accept / reject under options: rejected iff some ORIGINAL duration, after the composed substitution of the
   enabled steps, depends on time / a state / a derivative / an algebraic variable / a non-fixed input of the
   simplified model; accepted with a buildable function => every duration depends only on what is left of the
   constants, parameters and fixed inputs. *)
Theorem C22_simplify_decision (o : opts) (sm : smodel) :
  let ss := fst (run (steps_of o (sm_elim sm)) (init sm)) in
  (accept_s (final o sm) = false <->
   exists r0 s, In r0 (st_args (init sm)) /\
                In s (deps (app_subst (compose_all ss) (dr_dur r0))) /\ bad_s (final o sm) s) /\
  (accept_s (final o sm) = true -> closed_s (final o sm) = true ->
   forall r s, In r (st_args (final o sm)) -> In s (deps (dr_dur r)) -> good_s (final o sm) s).
Proof.
  split; [exact (run_reject_iff _ _) | exact (simplify_accept_closed (final o sm))].
Qed.
Print Assumptions C22_simplify_decision.

(* The merged flush (`run_merged`) is NOT equivalent: `w = x; _a = 2*w; y = delay(x, _a)`
   with eliminable_variable_expression + detect_aliases.  Sequentially the duration becomes 2*x (x a state):
   rejected.  Merged, it stays 2*w with w already eliminated: accepted, and no function can be built. *)
Definition m6_model : smodel :=
  mkSM (mkModel [mkDecl 1 KPlain; mkDecl 2 KPlain; mkDecl 3 KPlain; mkDecl 4 KPlain]
                [Eq (Ref (SDer 1)) (Neg (Ref (SVar 1)));
                 Eq (Ref (SVar 2)) (Ref (SVar 1));
                 Eq (Ref (SVar 3)) (Mul (Num 2) (Ref (SVar 2)));
                 Eq (Ref (SVar 4)) (Delay (Ref (SVar 1)) (Ref (SVar 3)))] 100) [] [3].
Definition m6_opts : opts := mkOpts false false false false false true true.

Theorem C22_delay_args_follow_refuted :
  let fs := steps_of m6_opts (sm_elim m6_model) in
  st_args (snd (run fs (init m6_model))) = [mkD (Ref (SVar 1)) (Mul (Num 2) (Ref (SVar 1))) None] /\
  accept_s (snd (run fs (init m6_model))) = false /\
  st_args (snd (run_merged fs (init m6_model))) = [mkD (Ref (SVar 1)) (Mul (Num 2) (Ref (SVar 2))) None] /\
  accept_s (snd (run_merged fs (init m6_model))) = true /\
  closed_s (snd (run_merged fs (init m6_model))) = false.
Proof. cbv zeta. repeat split; vm_compute; reflexivity. Qed.
Print Assumptions C22_delay_args_follow_refuted.

(* non-vacuity: constant c = 3, k = 2*c, parameter p = 5, q = c*p, fixed input uf, w = uf, _e = 2*w + p,
   z = 4; y1 = delay(5*x, q + k), y2 = delay(_e, _e + z) with all seven steps enabled: accepted, closed, the
   durations become 3*5 + 2*3 and (2*uf + 5) + 4, values as computed; without eliminate_constant_assignments
   z stays algebraic and the model is rejected. *)
Definition chain_example : smodel :=
  mkSM (mkModel [mkDecl 1 KConst; mkDecl 2 KConst; mkDecl 3 KParam; mkDecl 4 KParam; mkDecl 5 (KInput true);
                 mkDecl 6 KPlain; mkDecl 7 KPlain; mkDecl 8 KPlain; mkDecl 9 KPlain; mkDecl 10 KPlain; mkDecl 11 KPlain]
                [Eq (Ref (SDer 6)) (Neg (Ref (SVar 6)));
                 Eq (Ref (SVar 7)) (Ref (SVar 5));
                 Eq (Ref (SVar 8)) (Add (Mul (Num 2) (Ref (SVar 7))) (Ref (SVar 3)));
                 Eq (Ref (SVar 9)) (Num 4);
                 Eq (Ref (SVar 10)) (Delay (Mul (Num 5) (Ref (SVar 6))) (Add (Ref (SVar 4)) (Ref (SVar 2))));
                 Eq (Ref (SVar 11)) (Delay (Ref (SVar 8)) (Add (Ref (SVar 8)) (Ref (SVar 9))))] 100)
       [(1, Num 3); (2, Mul (Num 2) (Ref (SVar 1))); (3, Num 5); (4, Mul (Ref (SVar 1)) (Ref (SVar 3)))] [8].

Example C22_simplify_example :
  let o := mkOpts true true true true true true true in
  let st := final o chain_example in
  let en := mkEnv 0 [(6, [2]%Z); (5, [7]%Z)] [] in
  accept_s st = true /\ closed_s st = true /\
  map dr_dur (st_args st) =
    [Add (Mul (Num 3) (Num 5)) (Mul (Num 2) (Num 3));
     Add (Add (Mul (Num 2) (Ref (SVar 5))) (Num 5)) (Num 4)] /\
  outputs_s st en = [[10]; [21]; [19]; [23]]%Z /\
  accept_s (final (mkOpts true true false true true true true) chain_example) = false.
Proof. cbv zeta. repeat split; vm_compute; reflexivity. Qed.
Print Assumptions C22_simplify_example.
