(* C14 — simplification preserves the DAE's solutions.  Property theorems only; proofs live in
   Proofs/C14_simplify.v, C14_compose.v, C14_dexpr.v and C14_example.v, the executable model of
   Model.simplify in Model/C14_simplify.v.

   `sat r m`: the valuation r (over ALL symbols, eliminated ones included) satisfies the equations
   and initial equations of m, the values of its constants and parameters, and the facts `x = e`
   that simplify() recorded when it dropped a variable (ghost list).  `sat r m <-> sat r (P m)` is
   the property for pass P: no solution is lost, none is added, every recorded elimination holds.

   `sat2 r m` = `sat r m` and every recorded alias holds with its sign (rel_sat).
   Every modelled pass is an EQUIVALENCE, and they are composed for _simplify_once in
   the code's order and for the outer iteration (C14_simplify_once_preserves, C14_preserves), for
   every subset of the modelled options, under carve-out hypotheses stated on the model that
   reaches each pass (run_ok / loop_ok): acyclic definitions for the three value-into-value loops
   (carves out the two cyclic known findings), the recognised alias equations mean what
   detect_alias says (true for the fast path, C14_alias_shapes_partial; excludes the a^2 - b^2
   slow-path shape, C14_slow_path_refuted), no parameter is eliminated as an alias, and
   (replace_constant_values only) no alias entry has a constant as canonical variable.
   STILL OPEN: (i) removing that last hypothesis needs the ghost bookkeeping of removed alias
   entries (lemma: lookup of every constant name in the resolved substitution succeeds);
   (ii) "no parameter is eliminated" should follow from the invariant `every alias member is
   algebraic` (members_ok, not proved); (iii) the alias relation is proved directly on the
   model's signed entry lists (arel_add_sound) — it is NOT linked to C17's gmap model. *)
From Coq Require Import ZArith QArith Qcanon List Bool PArith.
Import ListNotations.
From PV Require Import Model.C14_simplify Proofs.C14_simplify Proofs.C14_compose Proofs.C15_square Proofs.C14_example Proofs.C14_dexpr.
Open Scope Qc_scope.

(* ca.substitute followed by CasADi's on-the-fly re-simplification (mk_un / mk_bin, 30 rewrite
   rules) evaluates like the original expression under the updated valuation *)
Theorem C14_subst_sound (r : env) (s : sub) (e : expr) :
  eval r (subst s e) = eval (upd r s) e.
Proof. exact (subst_sound r s e). Qed.
Print Assumptions C14_subst_sound.

(* replace_parameter_values: exact preservation, for every model *)
Theorem C14_pass_replace_parameter_values (r : env) (m : model) :
  sat r m <-> sat r (replace_param_values m).
Proof. exact (sound_replace_param_values r m). Qed.
Print Assumptions C14_pass_replace_parameter_values.

(* eliminate_constant_assignments: exact preservation, the recorded constant values (sign
   included) hold in every original solution *)
Theorem C14_pass_constant_assignments (r : env) (m : model) :
  sat r m <-> sat r (elim_const_assignments m).
Proof. exact (sound_elim_const_assignments r m). Qed.
Print Assumptions C14_pass_constant_assignments.

(* eliminable_variable_expression, arbitrary chains and any loop outcome: every original solution
   solves the simplified equations and initial equations and satisfies the recorded definitions.
   Partial: the converse needs acyclicity (see header). *)
Theorem C14_pass_eliminable_forward_partial (r : env) (mt : list name) (m : model) :
  failed m = false -> failed (eliminate_vars mt m) = false ->
  sat r m -> sat r (eliminate_vars mt m).
Proof. intros _. exact (eliminate_vars_forward r mt m). Qed.
Print Assumptions C14_pass_eliminable_forward_partial.

(* the step shared by every substituting pass (constant values, parameter / constant
   expressions, alias elimination): under the recorded facts the substituted equations and the
   substituted `value` metadata are equivalent to the original ones *)
Theorem C14_substitution_step_partial (r : env) (s : sub) (es : list expr) (l : list (name * pval)) :
  facts r s ->
  (holds r (map (subst s) es) <-> holds r es) /\ (pfacts r (subst_vals s l) <-> pfacts r l).
Proof. intro F. split; [exact (holds_subst r s es F) | exact (pfacts_subst r s l F)]. Qed.
Print Assumptions C14_substitution_step_partial.

(* detect_aliases, fast path: `x - y` is recognised as the alias x = y, `x + y` as x = -y, and
   that is exactly what the equation says *)
Theorem C14_alias_shapes_partial (r : env) (pc : list name) (x y : name) (n : bool) :
  x <> y ->
  let e := Bin (if n then Add else Sub) (Sym x) (Sym y) in
  detect_alias pc e = Some (x, y, n) /\ (eval r e = 0 <-> r x = sgnq n (r y)).
Proof. exact (detect_alias_fast r pc x y n). Qed.
Print Assumptions C14_alias_shapes_partial.

(* detect_aliases, slow path: a^2 - b^2 = 0 is taken for the alias a = b although a = 1, b = -1
   solves it (the property's quantifier — affine / triangular-bijective models — excludes it) *)
Theorem C14_slow_path_refuted :
  exists (e : expr) (r : env) (a b : name),
    detect_alias [] e = Some (a, b, false) /\ eval r e = 0 /\ r a <> r b.
Proof. exists e_squares, r_squares, 1%positive, 2%positive. exact slow_path_unsound. Qed.
Print Assumptions C14_slow_path_refuted.

(* value-into-value loops (parameter / constant expressions): equivalence for acyclic definitions,
   whatever the loop's outcome (rank argument: one substitution step can be undone) *)
Theorem C14_pass_replace_expressions (on_params : bool) (r : env) (m : model) :
  acyclic (expr_defs on_params m) -> (sat r m <-> sat r (replace_exprs on_params m)).
Proof. exact (sound_replace_exprs on_params r m). Qed.
Print Assumptions C14_pass_replace_expressions.

(* eliminable_variable_expression: full equivalence for acyclic (also chained) assignments *)
Theorem C14_pass_eliminable (r : env) (mt : list name) (m : model) :
  acyclic (elim_defs mt m) -> failed m = false -> failed (eliminate_vars mt m) = false ->
  (sat r m <-> sat r (eliminate_vars mt m)).
Proof. intros Hac _. exact (sound_eliminate_vars r mt m Hac). Qed.
Print Assumptions C14_pass_eliminable.

(* eliminable DIFFERENTIATED STATES (get_derivative: promotion of algebraic symbols to states with
   a fresh der symbol, look-through of already eliminated variables (ab3b403), chain rule): the pass
   is in the executable model and in the correspondence.  Pointwise the pass ADDS the differentiated
   definitions der(x) = d/dt(value) (`snd (elim2_defs ..)`): they are not consequences of the
   algebraic equations at one time instant, so the equivalence is relative to them.
   `dexpr` is the time derivative of the value (C14_dexpr_is_derivative, defs = []).
   Partial: the added definitions are not yet restated as consequences for trajectories, the
   look-through of eliminated variables is not covered by that lemma, and this pass is not composed in C14_preserves
   (there `no_elim_state` is a hypothesis). *)
Theorem C14_pass_eliminable_states_partial (r : env) (dermap : list (name * name)) (mt : list name) (m : model) :
  acyclic (fst (elim2_defs dermap mt m)) -> failed m = false ->
  failed (eliminate_vars2 dermap mt m) = false ->
  (sat r m /\ facts r (snd (elim2_defs dermap mt m)) <-> sat r (eliminate_vars2 dermap mt m)).
Proof. intros Hac _. exact (sound_eliminate_vars2 r dermap mt m Hac). Qed.
Print Assumptions C14_pass_eliminable_states_partial.

(* get_derivative's chain rule IS the time derivative: `eval_d r dr e` is the derivative of e along a
   trajectory with values r and time derivatives dr (dual numbers: constant, symbol, negation,
   doubling, square, sum, difference, product rules — exactly dexpr's constructors); with the
   derivative of a differentiated name x read from its symbol der(x) (dm x = der(x)) and 0 for every
   other symbol, dexpr's result evaluates to that derivative.  (No eliminated variable looked
   through: defs = []; the look-through case unfolds the recorded definition first.) *)
Theorem C14_dexpr_is_derivative (fuel : nat) (dm : list (name * name)) (r : env) (e : expr) :
  eval r (dexpr (S fuel) dm [] e) = eval_d r (dr_of r dm) e.
Proof. exact (dexpr_look fuel dm [] r e). Qed.
Print Assumptions C14_dexpr_is_derivative.

(* replace_constant_values incl. constants whose values are expressions in other constants *)
Theorem C14_pass_replace_constant_values_partial (r : env) (m : model) :
  acyclic (const_defs m) -> no_const_canonical m -> failed (replace_const_values m) = false ->
  (sat2 r m <-> sat2 r (replace_const_values m)).
Proof. exact (sound_replace_const_values r m). Qed.
Print Assumptions C14_pass_replace_constant_values_partial.

(* AliasRelation.add with sign and canonical choice: the new relation says exactly the old
   relation plus a = [-]b; None only for a contradictory pair *)
Theorem C14_alias_add_sound (r : env) (R R' : list acls) (a b : name) (nb : bool) :
  arel_add R a b nb = Some R' -> (rel_sat r R' <-> rel_sat r R /\ r a = sgnq nb (r b)).
Proof. exact (arel_add_sound r R a b nb R'). Qed.
Print Assumptions C14_alias_add_sound.

(* detect_aliases as a whole (loop over the equations, _make_alias with do_not_eliminate / swap /
   allow_derivative_aliases, add with sign, skip of aliases handled earlier, elimination) *)
Theorem C14_pass_detect_aliases (r : env) (ad : bool) (m : model) :
  shapes_ok r (map fst (params m) ++ map fst (consts m)) (eqs m) ->
  failed (detect_aliases ad m) = false ->
  map fst (params (detect_aliases ad m)) = map fst (params m) ->
  (sat2 r m <-> sat2 r (detect_aliases ad m)).
Proof. exact (sound_detect_aliases r ad m). Qed.
Print Assumptions C14_pass_detect_aliases.

(* _simplify_once = the seven modelled passes (`passes o`: replace_parameter_expressions,
   replace_constant_expressions, eliminate_constant_assignments, replace_parameter_values,
   replace_constant_values, eliminable_variable_expression + expand_mx, detect_aliases +
   allow_derivative_aliases) in the code's order, each enabled or not by its option *)
Theorem C14_simplify_once_preserves (r : env) (o : options) (m : model) :
  run_ok (passes o) m -> failed (simplify_once o m) = false ->
  (sat2 r m <-> sat2 r (simplify_once o m)).
Proof. exact (simplify_once_sound r o m). Qed.
Print Assumptions C14_simplify_once_preserves.

(* simplify(): the outer iteration (iterative_simplification) with SIMPLIFICATION_LOOP_LIMIT *)
Theorem C14_preserves (r : env) (o : options) (m : model) :
  loop_ok SIMPLIFICATION_LOOP_LIMIT o 0%nat m -> failed (simplify o m) = false ->
  (sat2 r m <-> sat2 r (simplify o m)).
Proof. exact (simplify_sound r o m). Qed.
Print Assumptions C14_preserves.

(* non-vacuity of the composition: for the regular example m_ex under o_ex (eliminate_constant_
   assignments, replace_parameter_values, replace_constant_values, eliminable_variable_expression +
   expand_mx, detect_aliases + allow_derivative_aliases; iterative_simplification is off, so the
   outer loop makes one pass) every carve-out hypothesis (run_ok / loop_ok) is PROVED, so simplify()
   preserves its solutions for every valuation *)
Example C14_preserves_example (r : env) : sat2 r m_ex <-> sat2 r (simplify o_ex m_ex).
Proof. exact (ex_preserves r). Qed.
Print Assumptions C14_preserves_example.

(* non-vacuity: a concrete regular model with a parameter, a constant, an eliminable variable and
   a negative alias is satisfied by its solution; simplify() with these seven options leaves one unknown,
   one equation and the alias a3 = -a1 *)
Example C14_example :
  sat r_ex m_ex /\
  let m' := simplify o_ex m_ex in
  failed m' = false /\ warned m' = false /\ algs m' = [1%positive] /\ length (eqs m') = 1%nat /\
  arel m' = [(1%positive, [(3%positive, true)])].
Proof. split; [exact ex_sat | exact ex_simplified]. Qed.
Print Assumptions C14_example.
