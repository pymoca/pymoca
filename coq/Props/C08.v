(* C08 — modifications take effect with Modelica precedence in either spelling.
   Property theorems; the lemmas are in Proofs/C08_modify.v; the model is the shared flattening model
   (Model/C07_flatten.v: environment merge, shifting, scope tags, modify_symbol) + Model/C08_modify.v.
   Proved for arbitrary argument lists: precedence = list order with the outer source appended last
   (C08_outermost); scope of value modifications (C08_scope_value); rejection of the nested spelling at structured
   components (C08_spelling_partial); that the specification Lib/Inst.v does not see the spelling and takes the
   outermost entry (C08_spec_spelling, C08_spec_outermost).
   Refuted on the faithful model (recorded defects): dotted attribute spelling (C08_spelling_refuted), scope of
   attribute modifications (C08_scope_refuted).

   WHAT IS NOT PROVED.  The refinement `flatten = inst` for libraries WITH modifications is not proved for whole
   libraries; the real flat model is compared with `inst` on every run instead (check_spec), outside the recorded
   defect shapes.  Proved are its steps at one place of the library, each for arbitrary arguments:
   C08_shift_is_sub (moving an argument down one component), C08_leaf_conversion (conversion at an elementary
   symbol), C08_extends_clause_env (the environment after the extends clauses), C08_apply_args_leaf and
   C08_extends_leaf_attributes_partial (what setattr in list order leaves on a leaf, against the specification's
   first-match lookup).  The last two state the invariant that would have to be carried through build and
   flatten_symbols: the list on a leaf consists of blocks, one per place where a modification was written
   (declaration, then extends clause, then each enclosing component); the specification reads the blocks in the
   opposite order, outermost first, and each block in the order written; the two agree when no block names an
   attribute twice (`uniq`).  C08_apply_args_leaf is the case of blocks of one argument (the whole list reversed, no
   side condition).  Missing is the lift of this to whole libraries: that the blocks reach each leaf in that order
   through tree.py:440-561 with their scopes, that modify_symbol, which applies the scoped arguments at the enclosing
   class's level and the others at the leaf's, realises the list order across levels, and that the renaming done at
   each level resolves every expression in the instance that wrote it — under hypotheses that exclude the recorded
   shapes (dotted attribute, scope clash C08_scope_refuted, alias of alias, alias below a nested class).  The same
   lift is what the spelling statement for whole libraries (`flatten` of the nested spelling equals `flatten` of the
   dotted one, or is rejected) waits for. *)
From Coq Require Import List ZArith Bool PArith.
From PV Require Import Lib.ClassTree Lib.Inst Model.C07_flatten Model.C08_modify Proofs.C07_flatten Proofs.C08_modify.
Import ListNotations.

(* modify_symbol applies `inner ++ outer` by setattr in list order, where `inner` are the arguments of
   the declaration (or of the base class) and `outer` those appended from the enclosing component or the
   extends clause (tree.py:305-307, 326-328, 494-497, 545-548).  If the outer source names attribute a,
   the final value is the outer one whatever the inner source says; if it is silent, the inner (and then
   the previous) value stands.  Holds for every pair of lists. *)
Theorem C08_outermost (a : ident) (inner outer : list marg) (attrs r : list (ident * expr)) :
  apply_args (inner ++ outer) attrs = Ok r ->
  (forall e, last_for a outer = Some e -> get_attr a r = Some e) /\
  (last_for a outer = None ->
   get_attr a r = match last_for a inner with Some e => Some e | None => get_attr a attrs end).
Proof.
  intros H. rewrite (apply_args_last a _ _ _ H), last_for_app.
  split; [intros e L | intros L]; rewrite L; reflexivity.
Qed.
Print Assumptions C08_outermost.

(* scope, VALUE modifications: the `value = e` argument created for a symbol keeps the scope of the
   argument it was written in, and an argument with a scope is applied exactly in the class with that
   full reference (where its references are then renamed) *)
Theorem C08_scope_value :
  (forall a e, In (MExpr e) (m_mods a) -> In (MArg (m_scope a) [aValue] [MExpr e]) (to_symbol_mods a)) /\
  (forall sc s t m, applies sc (MArg (Some s) t m) = true <-> s = sc).
Proof. exact (conj value_keeps_scope (fun sc s _ _ => path_eqb_spec s sc)). Qed.
Print Assumptions C08_scope_value.

(* PARTIAL (spelling).  At a structured component the dotted spelling a.rest(ms) is shifted one level and
   the nested spelling a(rest(ms)) is rejected (IndexError), for every argument — so there the two
   spellings never give different models.  Not covered: whole libraries (see the head of this file), and the leaf
   level, where the statement is false for the dotted-attribute shape (C08_spelling_refuted). *)
Theorem C08_spelling_partial (sc : option path) (n m : ident) (rest : path) (ms : list mval) :
  shift_arg (MArg sc (n :: m :: rest) ms) = Ok (MArg sc (m :: rest) ms) /\
  shift_arg (nest (MArg sc (n :: m :: rest) ms)) = Err IndexErr.
Proof. split; reflexivity. Qed.
Print Assumptions C08_spelling_partial.

(* the SPECIFICATION (Lib/Inst.v) is spelling independent — the dotted argument a.rest(ms) and its nested
   spelling a(rest(ms)) give the same modifier entries, for every argument — and outermost wins in it: in
   outer ++ inner the entry of the outer source is taken whenever there is one. *)
Theorem C08_spec_spelling (env : option path) (a : marg) : flat_arg env (nest a) = flat_arg env a.
Proof. exact (spec_spelling env a). Qed.
Print Assumptions C08_spec_spelling.

Theorem C08_spec_outermost (a : ident) (outer inner : list mentry) :
  attr_lookup a (outer ++ inner) =
  match attr_lookup a outer with Some x => Some x | None => attr_lookup a inner end.
Proof. exact (spec_outermost a outer inner). Qed.
Print Assumptions C08_spec_outermost.

(* at a leaf, the attributes that modify_symbol's setattr loop leaves (last argument naming an attribute wins) are
   the specification's lookup (first match) in the REVERSED entries of the same attribute arguments *)
Theorem C08_apply_args_leaf (env : option path) (a : ident) (l : list marg) (r : list (ident * expr)) :
  Forall simple_arg1 l -> apply_args l [] = Ok r ->
  get_attr a r = option_map entry_expr (attr_lookup a (rev (flat_args env l))).
Proof. exact (apply_args_leaf env a l r). Qed.
Print Assumptions C08_apply_args_leaf.

(* moving a dotted argument n.m.rest(ms) to component n by dropping the first name (tree.py:542) yields exactly the
   specification's sub-modifiers of n, and an argument for another component contributes none *)
Theorem C08_shift_is_sub (env : option path) (sc : option path) (n m : ident) (rest : path) (ms : list mval) :
  shift_arg (MArg sc (n :: m :: rest) ms) = Ok (MArg sc (m :: rest) ms) /\
  sub_mods n (flat_arg env (MArg sc (n :: m :: rest) ms)) = flat_arg env (MArg sc (m :: rest) ms) /\
  (forall h t, Pos.eqb h n = false -> sub_mods n (flat_arg env (MArg sc (h :: t) ms)) = []).
Proof.
  split; [reflexivity|]. rewrite !sub_mods_cons, Pos.eqb_refl. split; [reflexivity|].
  intros h t N. rewrite sub_mods_cons, N. reflexivity.
Qed.
Print Assumptions C08_shift_is_sub.

(* C08_leaf_conversion — the conversion at an elementary symbol (tree.py:469-492: a value becomes the argument
   `value = e`, the arguments of a class modification are taken as they are) preserves what the specification
   looks up: for an argument aimed at component n, the specification's sub-modifiers of n and the entries of
   the converted arguments give the same expression for every attribute (scopes aside: that the inner
   arguments lose the scope is the recorded finding C08_scope_refuted). *)
Theorem C08_leaf_conversion (env sc : option path) (n : ident) (ms : list mval) (a : ident) :
  option_map entry_expr (attr_lookup a (sub_mods n (flat_arg env (MArg sc [n] ms)))) =
  option_map entry_expr (attr_lookup a (flat_args env (to_symbol_mods (MArg sc [n] ms)))).
Proof. rewrite !attr_lookup_find. apply find_same, leaf_entries_same. Qed.
Print Assumptions C08_leaf_conversion.

(* C08_extends_clause_env — for a class whose
   extends clauses (with arbitrary modifiers) name extends-free classes, the modification environment after
   flatten_extends (tree.py:303-328) is the clause modifiers in clause order followed by the incoming
   environment (of the enclosing component or the deriving clause).  Since arguments are applied in list
   order (C08_outermost), the incoming — outer — source wins over the clause, and the clause over the
   base's own declarations, which is the order of the specification's `elems` (mods ++ clause entries,
   first match).  For the attributes of one inherited leaf see C08_extends_leaf_attributes_partial. *)
Theorem C08_extends_clause_env (root : list cdef) (f : nat) (c : cdef) (lex : path) (menv : list marg)
        (bases : list (cdef * path)) :
  Forall2 (simple_base_m root c lex) (c_exts c) bases -> c_kind c <> kBuiltin ->
  exists x, flatten_extends root (S (S f)) c lex menv = Ok x /\
            x_menv x = flat_map snd (c_exts c) ++ menv.
Proof. exact (flatten_extends_clause_env root f c lex menv bases). Qed.
Print Assumptions C08_extends_clause_env.

(* C08_extends_leaf_attributes_partial — the list on one inherited leaf and its attributes.  (1) One step of build_syms on an
   elementary symbol (tree.py:449-497) puts on the leaf the declaration's own arguments followed by the converted
   arguments of the environment that name it, in environment order — with C08_extends_clause_env the environment
   is  clause modifiers ++ incoming,  so the list is  decl ++ clause part ++ incoming part.  (2) For such a list
   (arguments in canonical spelling aimed at the leaf, each source naming an attribute at most once) setattr in
   list order leaves, for EVERY attribute, exactly what the specification looks up in
   sub_mods n (incoming ++ clause entries) ++ declaration entries:  the incoming (outer) environment wins over
   the extends clause, the clause over the base's declaration; the same statement with `clause := []` is the
   depth-1 component modification  B b(x(start = 1)).  What is missing for whole libraries: the head of this file. *)
Theorem C08_extends_leaf_attributes_partial :
  (forall root late rec ebi me myref s ss menv acc,
      mem_id (head_id (s_type s)) BUILTIN = true -> s_name s <> iValueSym ->
      build_syms root late rec ebi me myref (s :: ss) menv [] acc =
      build_syms root late rec ebi me myref ss (filter (fun a => negb (targets (s_name s) a)) menv) []
        (ISym (s_name s) (s_prefixes s) (s_dims s) (TyElem (s_type s))
              (s_mods s ++ flat_map to_symbol_mods (filter (targets (s_name s)) menv)) :: acc)) /\
  (forall env n a decl clause incoming r,
      Forall (fun m => m_target m = [n]) clause -> Forall (fun m => m_target m = [n]) incoming ->
      Forall simple_arg1 decl -> Forall simple_arg1 (flat_map to_symbol_mods clause) ->
      Forall simple_arg1 (flat_map to_symbol_mods incoming) ->
      uniq decl -> uniq (flat_map to_symbol_mods clause) -> uniq (flat_map to_symbol_mods incoming) ->
      apply_args (decl ++ flat_map to_symbol_mods clause ++ flat_map to_symbol_mods incoming) [] = Ok r ->
      get_attr a r =
      option_map entry_expr
        (attr_lookup a (sub_mods n (flat_args env incoming ++ flat_args env clause) ++ flat_args env decl))).
Proof. exact (conj build_syms_leaf_list extends_leaf_attributes). Qed.
Print Assumptions C08_extends_leaf_attributes_partial.

(* satisfiable and non-trivial: base declares x(start = 1, min = 0); the clause says x(start = 5); the enclosing
   component says x(start = 7) = 8: start = 7 (incoming over clause over declaration), min = 0, value = 8 *)
Example C08_extends_leaf_attributes_example :
  let decl := [MArg None [aStart] [MExpr (ENum 1)]; MArg None [aMin] [MExpr (ENum 0)]] in
  let clause := [MArg None [40%positive] [MClass [MArg None [aStart] [MExpr (ENum 5)]]]] in
  let incoming := [MArg (Some [41%positive]) [40%positive] [MClass [MArg None [aStart] [MExpr (ENum 7)]]; MExpr (ENum 8)]] in
  exists r, apply_args (decl ++ flat_map to_symbol_mods clause ++ flat_map to_symbol_mods incoming) [] = Ok r /\
    get_attr aStart r = Some (ENum 7) /\ get_attr aMin r = Some (ENum 0) /\ get_attr aValue r = Some (ENum 8) /\
    option_map entry_expr (attr_lookup aStart (sub_mods 40%positive (flat_args None incoming ++ flat_args None clause)
                                                ++ flat_args None decl)) = Some (ENum 7).
Proof. eexists. split; [vm_compute; reflexivity | repeat split; reflexivity]. Qed.
Print Assumptions C08_extends_leaf_attributes_example.

(* recorded defect: model C Real x; end C; model B C c; end B; model M B b(<m>); end M;
   <m> = c.x(start = 3) sets start;  <m> = c.x.start = 3 becomes the equation b.c.x = 3 and leaves start
   unset; both are accepted;  <m> = c(x(start = 3)) is rejected *)
Definition canon_lib : list cdef := [(CDef 40%positive 17%positive [] [] [(mkSym 41%positive [1%positive] [] [] [])] []); (CDef 42%positive 17%positive [] [] [(mkSym 43%positive [40%positive] [] [] [])] []); (CDef 44%positive 17%positive [] [] [(mkSym 45%positive [42%positive] [] [] [(MArg None [43%positive; 41%positive] [MClass [(MArg None [8%positive] [MExpr (ENum (3)%Z)])]])])] [])].
Definition dotted_lib : list cdef := [(CDef 40%positive 17%positive [] [] [(mkSym 41%positive [1%positive] [] [] [])] []); (CDef 42%positive 17%positive [] [] [(mkSym 43%positive [40%positive] [] [] [])] []); (CDef 44%positive 17%positive [] [] [(mkSym 45%positive [42%positive] [] [] [(MArg None [43%positive; 41%positive; 8%positive] [MExpr (ENum (3)%Z)])])] [])].
Definition nested_lib : list cdef := [(CDef 40%positive 17%positive [] [] [(mkSym 41%positive [1%positive] [] [] [])] []); (CDef 42%positive 17%positive [] [] [(mkSym 43%positive [40%positive] [] [] [])] []); (CDef 44%positive 17%positive [] [] [(mkSym 45%positive [42%positive] [] [] [(MArg None [43%positive] [MClass [(MArg None [41%positive] [MClass [(MArg None [8%positive] [MExpr (ENum (3)%Z)])]])]])])] [])].
Theorem C08_spelling_refuted :
  model_outcome canon_lib [44%positive] = OFlat [([45; 43; 41]%positive, [iReal], [], [], [(aStart, ENum 3)], 0%nat)] [] /\
  model_outcome dotted_lib [44%positive] = OFlat [([45; 43; 41]%positive, [iReal], [], [], [], 0%nat)]
                                                 [(ERef [45; 43; 41]%positive [], ENum 3)] /\
  model_outcome nested_lib [44%positive] = OErr IndexErr.
Proof. vm_compute. repeat split; reflexivity. Qed.
Print Assumptions C08_spelling_refuted.

(* recorded defect: model A parameter Real p = 5; Real x; end A;
   model M parameter Real p = 1; A a(x(start = p)); end M;  — the inner argument `start = p` has no scope
   although the argument it came from has one, and the flat model resolves p in A: a.x.start = a.p *)
Definition scope_lib : list cdef := [(CDef 40%positive 17%positive [] [] [(mkSym 41%positive [1%positive] [21%positive] [] [(MArg None [5%positive] [MExpr (ENum (5)%Z)])]); (mkSym 42%positive [1%positive] [] [] [])] []); (CDef 43%positive 17%positive [] [] [(mkSym 41%positive [1%positive] [21%positive] [] [(MArg None [5%positive] [MExpr (ENum (1)%Z)])]); (mkSym 44%positive [40%positive] [] [] [(MArg None [42%positive] [MClass [(MArg None [8%positive] [MExpr (ERef [41%positive] [])])]])])] [])].
Theorem C08_scope_refuted :
  (exists a inner sc, m_scope a = Some sc /\ In inner (to_symbol_mods a) /\ m_scope inner = None) /\
  exists syms eqs, model_outcome scope_lib [43%positive] = OFlat syms eqs /\
    In ([44; 42]%positive, [iReal], [], [], [(aStart, ERef [44; 41]%positive [])], 0%nat) syms.
Proof.
  split.
  - exists (MArg (Some [43%positive]) [42%positive] [MClass [MArg None [aStart] [MExpr (ERef [41%positive] [])]]]),
           (MArg None [aStart] [MExpr (ERef [41%positive] [])]), [43%positive].
    repeat split. left; reflexivity.
  - eexists _, _. split; [vm_compute; reflexivity|]. simpl; tauto.
Qed.
Print Assumptions C08_scope_refuted.

(* non-trivial instance with three competing levels:
   model A parameter Real k(min = 0) = 2; Real x(start = 1) = 2; end A;
   model B extends A(x(start = 5), k = 3); end B;
   model M B b1(k = 10); B b2(x(start = 7) = 8); end M;
   b1.k = 10 (component over extends clause over declaration), b1.x.start = 5 (extends clause over
   base), b2.x.start = 7, b2.k = 3, value equations b1.x = 2 and b2.x = 8 *)
Definition prec_lib : list cdef := [(CDef 40%positive 17%positive [] [] [(mkSym 41%positive [1%positive] [21%positive] [] [(MArg None [6%positive] [MExpr (ENum (0)%Z)]); (MArg None [5%positive] [MExpr (ENum (2)%Z)])]); (mkSym 42%positive [1%positive] [] [] [(MArg None [8%positive] [MExpr (ENum (1)%Z)]); (MArg None [5%positive] [MExpr (ENum (2)%Z)])])] []); (CDef 43%positive 17%positive [] [([40%positive], [(MArg None [42%positive] [MClass [(MArg None [8%positive] [MExpr (ENum (5)%Z)])]]); (MArg None [41%positive] [MExpr (ENum (3)%Z)])])] [] []); (CDef 44%positive 17%positive [] [] [(mkSym 45%positive [43%positive] [] [] [(MArg None [41%positive] [MExpr (ENum (10)%Z)])]); (mkSym 46%positive [43%positive] [] [] [(MArg None [42%positive] [MClass [(MArg None [8%positive] [MExpr (ENum (7)%Z)])]; MExpr (ENum (8)%Z)])])] [])].
Example C08_example :
  model_outcome prec_lib [44%positive] =
  OFlat [([45; 41]%positive, [iReal], [pParam], [], [(aValue, ENum 10); (aMin, ENum 0)], 0%nat);
         ([45; 42]%positive, [iReal], [], [], [(aStart, ENum 5)], 0%nat);
         ([46; 41]%positive, [iReal], [pParam], [], [(aValue, ENum 3); (aMin, ENum 0)], 0%nat);
         ([46; 42]%positive, [iReal], [], [], [(aStart, ENum 7)], 0%nat)]
        [(ERef [45; 42]%positive [], ENum 2); (ERef [46; 42]%positive [], ENum 8)].
Proof. vm_compute. reflexivity. Qed.
Print Assumptions C08_example.
