(* C06 — deep copies of a tree are independent of the original.
   Property theorems; what they rest on is proved in Proofs/C06_deepcopy.v and Proofs/C06_reach.v.
   All positive statements are about the model with flags = fixed_flags, i.e. Class.__deepcopy__ as
   coded in /repo (the tie file run/C06/Tie_C06.v, written and compiled by the check at every run,
   proves that the flags read from ast.py are these). *)
From Coq Require Import List Arith Bool.
From PV Require Import Lib.ObjGraph Model.C06_deepcopy Proofs.C06_deepcopy Proofs.C06_reach.
Import ListNotations.

(* copy.deepcopy of ANY class object (a Tree, a copy, or the class found by
   find_class(copy=True)) whose owned classes point to their owners: a new tree is appended, with the
   same class names and content; every owned class's parent is its owner IN THE COPY and no
   object of the copy carries a hook; the copy's root keeps the source root's parent (None for
   a Tree; the original parent for find_class(copy=True): a detached subtree sharing only that
   pointer). *)
Theorem C06_iso (w : world) (a : addr) (i0 : info) (rest : list (path * info)) :
  wf_at w a i0 rest ->
  exists c, deepcopy fixed_flags w a = Some (w ++ [c]) /\
            erase c = erase (([], i0) :: rest) /\
            closed_below (length w) c /\
            assoc [] c = Some (Info (dat i0) (par i0) None).
Proof.
  intros H. destruct (copy_facts _ _ _ _ H) as (Hd & He & Hc & _).
  eexists. split; [exact Hd|]. split; [exact He|]. split; [exact Hc|reflexivity].
Qed.
Print Assumptions C06_iso.

(* disjointness: whatever the flags, a deepcopy only appends (every existing tree is left as it
   was), and for the code as it is the copy of a Tree is self-contained: every parent pointer
   stored in it is an address inside the copy *)
Theorem C06_disjoint (w : world) (ti : nat) (i0 : info) (rest : list (path * info)) :
  (forall fl a w', deepcopy fl w a = Some w' -> exists c, w' = w ++ [c]) /\
  (wf_at w (ti, []) i0 rest -> par i0 = None ->
   exists c, deepcopy fixed_flags w (ti, []) = Some (w ++ [c]) /\ closed_tree (length w) c).
Proof.
  split; [intros fl a w' H; exact (deepcopy_frame fl w a w' H)|].
  intros H Hp. destruct (copy_facts _ _ _ _ H) as (Hd & _ & _ & Hc).
  eexists. split; [exact Hd|exact (Hc Hp)].
Qed.
Print Assumptions C06_disjoint.

(* edits: after copying a tree whose root has no parent (a parsed tree, a copy of one), ANY later
   sequence of add_class / remove_class / content edits (symbols, equations) and further deepcopies
   that is not addressed to one side leaves
   everything class lookup can reach from any class of that side (see = any walk over
   `.classes[name]` / `.parent`) exactly as it was — for the copy and for the original *)
Theorem C06_edits (w : world) (ti : nat) (t : tree) (i0 : info) (rest : list (path * info)) (ops : list op) :
  nth_error w ti = Some t -> wf_at w (ti, []) i0 rest -> par i0 = None ->
  exists c, deepcopy fixed_flags w (ti, []) = Some (w ++ [c]) /\
    erase c = erase t /\ closed_tree (length w) c /\
    ((forall o, In o ops -> ~ touches o (length w)) ->
       forall p ss, see (run fixed_flags ops (w ++ [c])) (length w, p) ss = see (w ++ [c]) (length w, p) ss) /\
    ((forall o, In o ops -> ~ touches o ti) ->
       forall p ss, see (run fixed_flags ops (w ++ [c])) (ti, p) ss = see w (ti, p) ss).
Proof.
  intros Ht Hwf Hp. destruct (copy_facts _ _ _ _ Hwf) as (Hd & He & _ & Hc). specialize (Hc Hp).
  destruct Hwf as (Hs & _ & _ & Hr). apply src_of_root in Hs. rewrite Ht in Hs. injection Hs as ->.
  destruct (wf_rest_closed _ i0 _ _ Hr) as (_ & Hct). specialize (Hct Hp).
  eexists. split; [exact Hd|]. split; [exact He|]. split; [exact Hc|].
  set (w1 := w ++ [spec_copy (length w) i0 rest]) in *. split; intros Hops p ss.
  - apply (edits_invisible _ _ _ _ _ (nth_error_snoc _ _) Hc Hops).
  - assert (Ht' : nth_error w1 ti = nth_error w ti).
    { apply nth_error_app1. apply nth_error_Some. congruence. }
    rewrite <- (see_closed _ _ _ _ Ht Hct Ht').
    apply (edits_invisible _ _ _ _ _ (eq_trans Ht' Ht) Hct Hops).
Qed.
Print Assumptions C06_edits.

(* copy of a copy: copies THE COPY (same names and content as the copy, whatever was edited in
   it since — the statement is for an arbitrary world), again closed *)
Theorem C06_copy_of_copy (w : world) (a : addr) (i0 : info) (rest : list (path * info)) :
  wf_at w a i0 rest -> (forall pa, par i0 = Some pa -> fst pa < length w) ->
  let c := spec_copy (length w) i0 rest in
  deepcopy fixed_flags w a = Some (w ++ [c]) /\
  exists c', deepcopy fixed_flags (w ++ [c]) (length w, []) = Some ((w ++ [c]) ++ [c']) /\
    erase c' = erase c /\ closed_below (S (length w)) c' /\
    (par i0 = None -> closed_tree (S (length w)) c').
Proof.
  intros H Hsc c. split; [exact (deepcopy_spec w a i0 rest H)|]. exact (copy_of_copy w a i0 rest H Hsc).
Qed.
Print Assumptions C06_copy_of_copy.

(* Reachable worlds.
   wf_tree (Proofs/C06_reach.v) is what the parser leaves (root first, every class after its owner with
   parent = owner, one entry per name path, no hooks).  EVERY operation of the model — deepcopy of any
   class (Tree, copy, find_class(copy=True)), add_class, remove_class, symbol/equation edits, on any
   tree — preserves it, so every world reachable by any history from a parsed tree is well-formed. *)
Theorem C06_reachable_wf (t0 : tree) (ops : list op) :
  wf_tree 0 t0 -> wf_world (run fixed_flags ops [t0]).
Proof.
  intros H. apply run_wf. apply (wf_world_snoc [] t0); [|exact H]. intros [|ti] t E; discriminate E.
Qed.
Print Assumptions C06_reachable_wf.

(* C06_iso and C06_disjoint in every reachable world, for every live class object; the new world is
   well-formed again; and the copy can be copied in turn (same names and content, closed below) *)
Theorem C06_reachable_copy (t0 : tree) (ops : list op) (a : addr) (i0 : info) (rest : list (path * info)) :
  wf_tree 0 t0 ->
  let w := run fixed_flags ops [t0] in
  src_of w a = Some (i0, rest) ->
  exists c, deepcopy fixed_flags w a = Some (w ++ [c]) /\
    erase c = erase (([], i0) :: rest) /\ closed_below (length w) c /\
    assoc [] c = Some (Info (dat i0) (par i0) None) /\
    (par i0 = None -> closed_tree (length w) c) /\
    wf_world (w ++ [c]) /\
    exists c', deepcopy fixed_flags (w ++ [c]) (length w, []) = Some ((w ++ [c]) ++ [c']) /\
               erase c' = erase c /\ closed_below (S (length w)) c'.
Proof.
  intros H0 w S. pose proof (C06_reachable_wf t0 ops H0) as Hw. fold w in Hw.
  destruct (wf_src _ _ _ _ Hw S) as (Hat & Hsc & _).
  destruct (copy_facts _ _ _ _ Hat) as (Hd & He & Hc & Hct).
  eexists. split; [exact Hd|]. split; [exact He|]. split; [exact Hc|]. split; [reflexivity|].
  split; [exact Hct|]. split; [exact (copy_wf _ _ _ _ Hw S)|].
  destruct (copy_of_copy _ _ _ _ Hat Hsc) as (c' & Hd' & He' & Hc' & _). exists c'. auto.
Qed.
Print Assumptions C06_reachable_copy.

(* history-level independence (the property's sentence, for histories): in any reachable world, copy
   a self-contained tree A (the parsed tree, a copy, a copy of a copy ...) giving B; then after ANY
   interleaving `ops` of edits addressed to A, to B or to other trees, further deepcopies and
   find_class(copy=True), the tree A and everything lookup reaches from any class of A are exactly what
   the sub-history of the operations addressed to A alone produces — and likewise for B. *)
Theorem C06_history_independent (t0 : tree) (ops0 ops : list op) (ta : nat) :
  wf_tree 0 t0 ->
  let w := run fixed_flags ops0 [t0] in
  root_none w ta ->
  exists c, deepcopy fixed_flags w (ta, []) = Some (w ++ [c]) /\
    let w1 := w ++ [c] in
    let tb := length w in
    let full := run fixed_flags ops w1 in
    let onlyA := run fixed_flags (filter (touchesb ta) ops) w1 in
    let onlyB := run fixed_flags (filter (touchesb tb) ops) w1 in
    (nth_error full ta = nth_error onlyA ta /\ forall p ss, see full (ta, p) ss = see onlyA (ta, p) ss) /\
    (nth_error full tb = nth_error onlyB tb /\ forall p ss, see full (tb, p) ss = see onlyB (tb, p) ss).
Proof.
  intros H0 w (i0 & rest & Ht & Hp). pose proof (C06_reachable_wf t0 ops0 H0) as Hw. fold w in Hw.
  pose proof (proj2 (src_of_root _ _ _ _) Ht) as S. destruct (wf_src _ _ _ _ Hw S) as (Hat & _).
  exists (spec_copy (length w) i0 rest). split; [exact (deepcopy_spec _ _ _ _ Hat)|]. cbn zeta.
  pose proof (copy_wf _ _ _ _ Hw S) as Hw1. split; apply history_projection; try exact Hw1.
  - exists i0, rest. rewrite nth_error_app1 by (apply nth_error_Some; congruence). auto.
  - eexists _, _. split; [apply nth_error_snoc|exact Hp].
Qed.
Print Assumptions C06_history_independent.

(* the same for any self-contained tree of any reachable world and any further history *)
Theorem C06_history_projection (t0 : tree) (ops0 ops : list op) (ti : nat) :
  wf_tree 0 t0 ->
  let w := run fixed_flags ops0 [t0] in
  root_none w ti ->
  nth_error (run fixed_flags ops w) ti = nth_error (run fixed_flags (filter (touchesb ti) ops) w) ti /\
  forall p ss, see (run fixed_flags ops w) (ti, p) ss = see (run fixed_flags (filter (touchesb ti) ops) w) (ti, p) ss.
Proof.
  intros H0 w Hr. exact (history_projection w ti ops (C06_reachable_wf t0 ops0 H0) Hr).
Qed.
Print Assumptions C06_history_projection.

(* the code before 08ba236: both parts fail (finite witnesses, by computation) *)
Definition ex_tree : tree :=
  [ ([], Info (CD [] 0) None None);
    ([1], Info (CD [1; 2] 1) (Some (0, [])) None);
    ([1; 2], Info (CD [3] 0) (Some (0, [1])) None);
    ([3], Info (CD [] 2) (Some (0, [])) None) ].

(* guard `self.parent not in memo`: the owned classes of the copy keep parent = the ORIGINAL,
   so an edit of the original is seen from the copy *)
Example C06_refuted_parent :
  let fl := Flags false true in
  let w1 := run fl [DeepCopy (0, [])] [ex_tree] in
  get w1 (1, [1]) = Some (Info (CD [1; 2] 1) (Some (0, [])) None) /\
  ~ touches (SetData (0, []) (CD [9] 0)) 1 /\
  see (apply_op fl w1 (SetData (0, []) (CD [9] 0))) (1, [1]) [Up] <> see w1 (1, [1]) [Up].
Proof. vm_compute. repeat split; intros H; discriminate H. Qed.
Print Assumptions C06_refuted_parent.

(* hook `new.__deepcopy__ = _deepcp`: copying the (edited) copy reproduces the original *)
Example C06_refuted_hook :
  let fl := Flags true false in
  let w3 := run fl [DeepCopy (0, []); SetData (1, [1]) (CD [7] 5); DeepCopy (1, [])] [ex_tree] in
  option_map dat (get w3 (1, [1])) = Some (CD [7] 5) /\
  option_map dat (get w3 (2, [1])) = Some (CD [1; 2] 1).
Proof. vm_compute. split; reflexivity. Qed.
Print Assumptions C06_refuted_hook.

(* non-vacuity: a nested tree satisfies the hypotheses, for the root and for an inner class *)
Example C06_example :
  wf_at [ex_tree] (0, []) (Info (CD [] 0) None None)
        [ ([1], Info (CD [1; 2] 1) (Some (0, [])) None);
          ([1; 2], Info (CD [3] 0) (Some (0, [1])) None);
          ([3], Info (CD [] 2) (Some (0, [])) None) ] /\
  wf_at [ex_tree] (0, [1]) (Info (CD [1; 2] 1) (Some (0, [])) None)
        [ ([2], Info (CD [3] 0) (Some (0, [1])) None) ].
Proof.
  assert (Hw : wf_world [ex_tree]) by (apply (C06_reachable_wf ex_tree []), wf_treeb_sound; reflexivity).
  split; [exact (proj1 (wf_src _ (0, []) _ _ Hw eq_refl))|exact (proj1 (wf_src _ (0, [1]) _ _ Hw eq_refl))].
Qed.
Print Assumptions C06_example.

(* the parsed-tree hypothesis of the reachable-world theorems is satisfiable *)
Example C06_example_wf : wf_tree 0 ex_tree /\ root_none [ex_tree] 0.
Proof.
  split; [apply wf_treeb_sound; reflexivity|]. eexists _, _. split; reflexivity.
Qed.
Print Assumptions C06_example_wf.

(* the hypothesis `wf_tree 0 t0` is decided by the boolean that the correspondence evaluates on every
   real parsed tree (check_case = wf_treeb 0 t0 && ...) *)
Theorem C06_parsed_tree_check (ti : nat) (t : tree) : wf_treeb ti t = true -> wf_tree ti t.
Proof. exact (wf_treeb_sound ti t). Qed.
Print Assumptions C06_parsed_tree_check.
