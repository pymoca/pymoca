(* C02 — concurrent parses sharing a cache folder all succeed.
   Property theorems only; proofs live in Lib/Lock.v and Proofs/C02_exec.v, C02_conc.v (modes), C02_live.v
   (mutual exclusion, progress), C02_schema.v (layout knowledge).

   Model: Model/C02_conc.v (small-step interleaving semantics of n parse() calls over the SQLite
   lock table of Lib/Lock.v).  `side_ok p` is the decidable side condition on the SQL skeleton p
   of parse() — in particular "no write statement runs while its connection holds only SHARED
   inside a transaction" (every write is the first statement of its transaction, or the
   transaction was begun IMMEDIATE).  It is evaluated by vm_compute on the skeleton regenerated
   from parser.py on every run (run/C02/Gen.v).

   Fairness assumption (not a hypothesis of the theorems, but what `blocked` means): a blocked
   statement waits in SQLite's busy handler and is retried; it is never turned into an error by
   the busy timeout (parser.py connects with timeout=60.0; the tie demands at least SQLite's default 5 s). *)
From Coq Require Import List Bool Arith.
From PV Require Import Lib.Lock Model.C02_conc Proofs.C02_conc Proofs.C02_live Proofs.C02_schema.
Import ListNotations.

(* C02_safe.  For ANY program that satisfies the two decidable side conditions (side_ok_full = side_ok &&
   sch_ok, both re-evaluated on the skeleton regenerated from parser.py on every run), ANY database that is
   not garbage (fresh/empty, existing with any rows of any age, wrong layouts), ANY number of calls with any
   parameters and ANY schedule of any length - PROVIDED the calls that skip the start-up check (CInit false:
   the path is already in parse.initialized_dbs of their process) start on a database whose two tables have
   the expected layout - in every reachable configuration:
   - no call is in an error state: no "database is locked", no "no such table/column", no constraint
     error, no missing file, nothing;
   - no call has removed the database while another had it open; the file is never removed or replaced.
   Proof: C02_safe_modes's invariant + mutual exclusion of writers (C02_mutex) + soundness of the
   layout-knowledge typing sch_ok (Proofs/C02_schema.v: per statement the abstract transfer function is
   sound, a well-typed write never turns a good table into something else, the committed content only
   changes by the one writer, so every other call's knowledge "table good" stays true).
   The proviso is exactly what the seeded change C02/m4 broke (C02_skip_check_refuted below). *)
Theorem C02_safe (p : prog) (d0 : db) (pars : list params) (sched : list nat) :
  side_ok_full p = true ->
  (forall par, In par pars -> p_init par = false -> tget TModels d0 = TGood /\ tget TMeta d0 = TGood) ->
  let c := fst (run sched (init_cfg p (Some d0) pars)) in
  c_viol c = false /\ c_path c = Some 0 /\ (exists d, c_store c = [Some d]) /\
  (forall t, In t (c_thrs c) -> forall e, t_st t <> Err e).
Proof. exact (safe_full p d0 pars sched). Qed.
Print Assumptions C02_safe.

(* the proviso is necessary: a call that skips the start-up check on a database with a wrong layout fails *)
Theorem C02_skip_check_refuted :
  side_ok_full prog_head = true /\
  exists sched, In (Err ESchema)
    (map t_st (c_thrs (fst (run sched (init_cfg prog_head (Some (Db TWrong TMissing false [])) [Par 0 false false true 30]))))).
Proof. split; [vm_compute; reflexivity|]. exists [0;0;0]. vm_compute. auto. Qed.
Print Assumptions C02_skip_check_refuted.

(* The mode layer alone (side_ok without sch_ok), kept because it needs no proviso on the calls: for ANY
   well-moded program, any database that is not garbage, any calls, any schedule: no removal, the file is
   never replaced, and the only error a call can end in is a schema error (excluded by C02_safe). *)
Theorem C02_safe_modes (p : prog) (d0 : db) (pars : list params) (sched : list nat) :
  side_ok p = true ->
  let c := fst (run sched (init_cfg p (Some d0) pars)) in
  c_viol c = false /\ c_path c = Some 0 /\ length (c_store c) = 1 /\
  (forall t, In t (c_thrs c) -> forall e, t_st t = Err e -> e = ESchema).
Proof. exact (safe p d0 pars sched). Qed.
Print Assumptions C02_safe_modes.

(* the skeleton of parse() at /repo HEAD (static copy; the regenerated one is re-checked on every run, and
   its size is compared with this copy's, as a note) satisfies the side condition, the one before 1904e3c
   does not *)
Theorem C02_head_well_moded : side_ok prog_head = true /\ side_ok prog_prefix = false.
Proof. split; vm_compute; reflexivity. Qed.
Print Assumptions C02_head_well_moded.

(* before the repair: two calls on a fresh folder, both read sqlite_master under a deferred BEGIN,
   the second one's DROP TABLE fails at once with "database is locked" *)
Definition P0 := Par 0 true false true 30.
Theorem C02_refuted_deferred :
  exists sched, In (Err EBusy) (map t_st (c_thrs (fst (run sched (init_cfg prog_prefix (Some empty_db) [P0; P0]))))).
Proof. exists [0;1;0;1;0;1;0;1;0;1]. vm_compute. auto. Qed.
Print Assumptions C02_refuted_deferred.

(* the same schedule is harmless for the repaired program: everything the second call attempts
   while the first holds RESERVED is blocked, not failed *)
Theorem C02_head_on_witness :
  map t_st (c_thrs (fst (run ([0;1;0;1;0;1;0;1;0;1] ++ repeat 0 30 ++ repeat 1 30)
                             (init_cfg prog_head (Some empty_db) [P0; P0])))) = [Fin; Fin].
Proof. vm_compute. reflexivity. Qed.
Print Assumptions C02_head_on_witness.

(* KNOWN, UNREPAIRED (finding corrupt-db-concurrent-recovery): when the database file is garbage
   the hypothesis "not garbage" of C02_safe_modes is necessary — two calls both see the
   corruption, the second one removes the database the first one has just recreated and is
   using; in another order the second os.remove raises FileNotFoundError *)
Theorem C02_refuted_corrupt :
  (exists sched, c_viol (fst (run sched (init_cfg prog_head None [P0; P0]))) = true) /\
  (exists sched, In (Err ENoFile) (map t_st (c_thrs (fst (run sched (init_cfg prog_head None [P0; P0])))))).
Proof.
  split.
  - exists [0;1;0;0;0;0;1;1;1]. vm_compute. reflexivity.
  - exists [0;1;0;1;0;1;0;1]. vm_compute. auto.
Qed.
Print Assumptions C02_refuted_corrupt.

(* the prune-vs-lookup class (seeded change C02/m2): when the lookup is split into a first SELECT that
   decides hit/miss and a second SELECT whose single row is unpacked at once, another caller's start-up
   prune of an expired entry (40 days old, expiration 30) between the two makes the call fail; such a
   program is rejected by the side condition *)
Definition prog_split : prog :=
  [ IS SConnect;
    IIf CInit [ IS (SBegin false); IS (SWrite WPrune); IS SCommit ] [];
    IS (SBegin false); IS (SRead RLookup r_hit); IS SCommit;
    IIf (CReg r_hit) [ IS (SRead RFetch 7) ] [];
    IS SClose ].
Theorem C02_refuted_split_lookup :
  side_ok prog_split = false /\
  exists sched,
    In (Err ENoRow) (map t_st (c_thrs (fst (run sched
      (init_cfg prog_split (Some (Db TGood TGood true [(0, 40)])) [Par 0 false false true 30; Par 1 true false true 30]))))).
Proof. split; [vm_compute; reflexivity|]. exists [0;0;0;0;1;1;1;1;0]. vm_compute. auto. Qed.
Print Assumptions C02_refuted_split_lookup.

(* the abstract lock layer: a granted or blocked operation never creates a second connection at
   RESERVED or above, and SQLITE_BUSY-without-waiting is only ever the answer to a SHARED holder
   that asks to write *)
Theorem C02_lock_mutex mine others op :
  writers (mine :: others) <= 1 ->
  match acquire mine others op with
  | Grant l | Block l => writers (l :: others) <= 1
  | Busy => True
  end.
Proof. exact (acquire_mutex mine others op). Qed.
Print Assumptions C02_lock_mutex.

Theorem C02_busy_only_on_upgrade mine others op :
  acquire mine others op = Busy -> mine = Sh /\ exists intx, op = LWrite intx.
Proof. exact (busy_only_on_upgrade mine others op). Qed.
Print Assumptions C02_busy_only_on_upgrade.

(* outside the fairness assumption (`runx`: entry 100 + tid = "the busy timeout of call tid expires on this
   blocked attempt"): the 'pending writer' - call 0 holds SHARED between its lookup and the commit, call 1 sits
   in COMMIT with PENDING, the late starter 2 cannot get SHARED for its integrity check and times out.  If the
   handler of the integrity check does not re-raise a busy error (seeded change C02/m5: it tests for
   SQLITE_LOCKED), the time-out is taken for corruption and the database the other two have open is removed;
   with the guard of /repo HEAD nothing is removed and all three calls end (2 by the uncached fall-back) *)
Definition pending_writer : list nat :=
  [0;0;0] ++ repeat 1 7 ++ [2; 102] ++ repeat 2 4 ++ repeat 0 3 ++ repeat 1 3 ++ repeat 2 30.
Definition pw_init : cfg :=
  init_cfg prog_head (Some (Db TGood TGood true [(0, 0)]))
           [Par 0 false false true 30; Par 1 false false true 30; Par 2 true false true 30].
Theorem C02_timeout_guard :
  c_viol (fst (runx false pending_writer pw_init)) = true /\
  c_viol (fst (runx true pending_writer pw_init)) = false /\
  map t_st (c_thrs (fst (runx true pending_writer pw_init))) = [Fin; Fin; Fin] /\
  same_set (rows_of (fst (runx true pending_writer pw_init))) [0; 1] = true.
Proof. vm_compute. auto. Qed.
Print Assumptions C02_timeout_guard.

(* mutual exclusion lifted to whole configurations: for ANY program, any initial file (also garbage),
   any calls and any schedule, at most one connection per database file holds RESERVED or more *)
Theorem C02_mutex (p : prog) (d0 : option db) (pars : list params) (sched : list nat) :
  mutex (fst (run sched (init_cfg p d0 pars))).
Proof. exact (mutex_reachable p d0 pars sched). Qed.
Print Assumptions C02_mutex.

(* deadlock freedom and termination for well-moded programs on a database that is not garbage, in
   every reachable configuration c:  (1) if some call is still running, some call's next attempt is
   neither blocked nor idle (no cyclic wait: a SHARED holder never waits - its reads and its commit are
   granted and its write fails at once -, a writer waits only at COMMIT and only for SHARED holders, a
   call that holds nothing waits only for lock holders);  (2) a schedule of at most Mu(c) attempts exists
   after which no call is running;  (3) along ANY continuation the attempts that are neither blocked nor
   idle number at most Mu(c) = total remaining program length.  Fairness needed to conclude that all
   calls finish: while a call is unfinished the scheduler eventually picks a call that can progress.
   Waiting TIME (SQLite's busy timeout) is not modelled. *)
Theorem C02_no_deadlock (p : prog) (d0 : db) (pars : list params) (sched : list nat) :
  side_ok p = true ->
  let c := fst (run sched (init_cfg p (Some d0) pars)) in
  ((exists i t, nth_error (c_thrs c) i = Some t /\ t_st t = Run) -> exists tid, can_progress c tid) /\
  (exists more, length more <= Mu (c_thrs c) /\
                forall t, In t (c_thrs (fst (run more c))) -> t_st t <> Run) /\
  (forall more, Mu (c_thrs (fst (run more c))) + progress_count (snd (run more c)) <= Mu (c_thrs c)).
Proof. exact (no_deadlock p d0 pars sched). Qed.
Print Assumptions C02_no_deadlock.

(* the layout-knowledge side condition sch_ok (Model/C02_conc.v): a DROP TABLE must be guarded by a layout
   read inside the same write transaction.  HEAD satisfies it; the seeded change C02/m1 (lock-free layout
   read, BEGIN IMMEDIATE only around DROP+CREATE) is well-moded but is rejected by it, and in the model
   its second caller drops the table - and the cached row - the first caller has just written *)
Theorem C02_m1_rejected :
  side_ok_full prog_head = true /\ side_ok prog_m1 = true /\ sch_ok prog_m1 = false /\
  exists sched,
    let c := fst (run sched (init_cfg prog_m1 (Some empty_db) [Par 0 true false true 30; Par 1 true false true 30])) in
    map t_st (c_thrs c) = [Fin; Fin] /\ rows_of c = [1].
Proof.
  split; [vm_compute; reflexivity|]. split; [vm_compute; reflexivity|]. split; [vm_compute; reflexivity|].
  exists ([0;0;0;0; 1;1;1;1] ++ repeat 0 30 ++ repeat 1 30). vm_compute. auto.
Qed.
Print Assumptions C02_m1_rejected.

(* non-vacuity: three calls (a miss, a hit with last-hit update, a syntax error) on a database with
   a wrong `models` layout, an interleaved schedule with blocked attempts, all finish *)
Example C02_example :
  let pars := [Par 0 true false true 30; Par 1 true true true 30; Par 2 true false false 30] in
  let d0 := Db TWrong TGood true [(1, 0)] in
  let r := run (concat (repeat [0;1;2;2;1;0] 40)) (init_cfg prog_head (Some d0) pars) in
  map t_st (c_thrs (fst r)) = [Fin; Fin; Fin] /\
  existsb (fun o => out_eqb (snd o) OBlocked) (snd r) = true /\
  side_ok prog_head = true.
Proof. vm_compute. auto. Qed.
Print Assumptions C02_example.
