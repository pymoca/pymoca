(* C04 — parsed class structure reflects the source declarations.  Property theorems only; proofs in
   Proofs/C04_listener.v (one class) and Proofs/C04_walk.v (whole walk).
   `do_element v path (ECls …) st` is the executable model of the ASTListener walking one class definition (any
   listener state `st`: top-level and nested classes alike); `run_file_full v cs` walks a file and also returns the
   final listener state, whose ghost component `l_trace` lists (order, object ids) of the symbols in creation order
   = source order.  `head_variant` is /repo HEAD; `prefix_variant` is the code before the three repairs this check
   led to (7cea29a, 480cfc0, e08c00c), kept for the `_refuted` witnesses.
   Ideal reading of a class text (nothing in it depends on the listener):
     ideal_syms secs   one symbol per declarator of every component clause, in source order: name, type, keyword
                       list, dimensions = declarator subscripts followed by clause subscripts (ideal_dims),
                       visibility = label of the declaring section, comment, class modification followed by the
                       declaration value as one `value` argument (spec_cm); order and object ids erased;
     ideal_exts, fold_imp (imports_els …), cnames_els, sel init secs   likewise extends / imports / nested classes /
                       equations and statements of the (non-)initial sections.
   `modelled e = true`: no element redeclaration inside the modification of a component (declared, or itself
   redeclared inside an extends clause).  On such texts /repo HEAD corrupts the listener state (known finding
   redeclare-in-component-modification, repair fixes/C04_redeclare_in_component_modification.diff) and the model
   does not mirror it; the hypothesis is not used by the proofs, it delimits where the model is tied to the code.
   Redeclarations directly in an extends argument list ARE modelled: they produce no symbol of the class. *)
From Coq Require Import String List Bool Arith Sorting.Sorted Sorting.Permutation.
From PV Require Import Model.C04_listener Proofs.C04_listener Proofs.C04_walk.
Import ListNotations.
Open Scope string_scope.

(* MAIN: every declared component exactly once, in source order, with name, type, prefixes, dimensions, visibility,
   comment and modifications as declared; names pairwise distinct.  Unbounded: any number of sections, clauses,
   declarators, nested classes; any listener state. *)
Theorem C04_symbols path ct n cm secs eqs algs st r cls st' :
  modelled (ECls ct n cm secs eqs algs) = true ->
  do_element head_variant path (ECls ct n cm secs eqs algs) st = Ok ((r, cls), st') ->
  exists own nested, cls = own :: nested
    /\ map erase_sym (o_syms own) = ideal_syms secs
    /\ map s_name (o_syms own) = names_els (all_els secs)
    /\ NoDup (map s_name (o_syms own)).
Proof.
  intros _ H. destruct st as [k l], st' as [k' l']. apply class_ok in H.
  destruct H as (syms & imports & nested & -> & Hs & _ & Hf & _).
  assert (Hn : map s_name syms = names_els (all_els secs))
    by (rewrite <- erase_name, Hs; apply class_syms_names).
  eexists _, nested. split; [reflexivity|]. cbn [o_syms].
  rewrite Hn. rewrite class_syms_head in Hs. apply fresh_NoDup in Hf. tauto.
Qed.
Print Assumptions C04_symbols.

(* equations and statements in source order, each in its initial or non-initial list; extends clauses (with the
   visibility of their section), imports and nested classes attached to the class that declares them — the
   enclosing class gains the class name only *)
Theorem C04_sections path ct n cm secs eqs algs k l r cls k' l' :
  modelled (ECls ct n cm secs eqs algs) = true ->
  do_element head_variant path (ECls ct n cm secs eqs algs) (k, l) = Ok ((r, cls), (k', l')) ->
  exists own nested, cls = own :: nested
    /\ o_path own = (path ++ [n])%list /\ o_ctype own = ct /\ o_comment own = cm
    /\ o_eqs own = sel false eqs /\ o_ieqs own = sel true eqs
    /\ o_sts own = sel false algs /\ o_ists own = sel true algs
    /\ o_exts own = ideal_exts secs
    /\ fold_imp head_variant (imports_els (all_els secs)) [] = Ok (o_imports own)
    /\ o_classes own = cnames_els (all_els secs)
    /\ k_classes k' = (k_classes k ++ [n])%list /\ k_seen k' = k_seen k /\ k_imports k' = k_imports k.
Proof.
  intros _ H. apply class_ok in H.
  destruct H as (syms & imports & nested & -> & _ & Hi & _ & ->).
  eexists _, nested. rewrite <- class_exts_head. repeat split; try reflexivity. exact Hi.
Qed.
Print Assumptions C04_sections.

(* a component declared twice in one class: the class text is rejected (any variant, any listener state) *)
Theorem C04_duplicate v path ct n cm secs eqs algs st :
  ~ NoDup (names_els (all_els secs)) -> exists e, do_element v path (ECls ct n cm secs eqs algs) st = Err e.
Proof.
  intros Hn. destruct st as [k l].
  destruct (do_element v path (ECls ct n cm secs eqs algs) (k, l)) as [[[r cls] [k' l']]|e] eqn:H; [|eauto].
  apply class_ok in H. destruct H as (_ & _ & _ & _ & _ & _ & Hf & _).
  apply fresh_NoDup in Hf. destruct Hf as [Hf _]. contradiction.
Qed.
Print Assumptions C04_duplicate.

(* declaration order over a whole file (any number of classes, nested classes, extends clauses with
   modifications, clauses): the order numbers in creation order = source order (l_trace) increase strictly, they
   are exactly the order numbers (and object ids) of the symbols of the parsed classes, and within every class the
   symbol table — which C04_symbols shows to be in source order — has strictly increasing order numbers *)
Theorem C04_order v cs out lf :
  forallb modelled cs = true ->
  run_file_full v cs = Ok (out, lf) -> Forall is_cls cs ->
  StronglySorted lt (map kord (l_trace lf))
  /\ Permutation (l_trace lf) (map key (flat_map o_syms out))
  /\ Forall (fun c => StronglySorted lt (map s_order (o_syms c))) out.
Proof.
  intros _ H Hc. destruct (file_walk v cs out lf H Hc) as (P & [G _ _ _] & F).
  split; [eapply incr_sorted, G|auto].
Qed.
Print Assumptions C04_order.

(* no sharing after the walk of a whole file: no two symbols — of the same clause, of different clauses, of
   different classes — point at the same prefixes / dimensions / type object.  (The allocation stamp only grows;
   the first symbol of a clause keeps the clause's objects, which are older than every copy.) *)
Theorem C04_no_sharing v cs out lf :
  forallb modelled cs = true ->
  run_file_full v cs = Ok (out, lf) -> Forall is_cls cs ->
  NoDup (map s_pid (flat_map o_syms out)) /\ NoDup (map s_did (flat_map o_syms out))
  /\ NoDup (map s_tid (flat_map o_syms out)).
Proof.
  intros _ H Hc. destruct (file_walk v cs out lf H Hc) as (P & [_ Gp Gd Gt] & _).
  rewrite <- kpid_key, <- kdid_key, <- ktid_key.
  repeat split; (eapply Permutation_NoDup; [apply Permutation_map; exact P|eapply incr_NoDup; eassumption]).
Qed.
Print Assumptions C04_no_sharing.

(* the same refinement for every variant, with the variant's effective visibility / dimensions; and when these
   coincide with the ideal ones (repair in, or the text repeats no section label / does not combine clause and
   declarator subscripts); the modification of a declaration is read the same way by every variant *)
Theorem C04_variants v :
  (forall path ct n cm secs eqs algs st r cls st',
      do_element v path (ECls ct n cm secs eqs algs) st = Ok ((r, cls), st') ->
      exists own nested, cls = own :: nested /\ map erase_sym (o_syms own) = class_syms v secs)
  /\ (forall (secs : list (label * list element)), v_allsec v = true \/ labels_once secs = true ->
        eff_vis v secs = map (fun s => vis_of_label (fst s)) secs)
  /\ (forall cl d, v_dimsmerge v = true \/ c_dims cl = None \/ d_dims d = None -> spec_dims v cl d = ideal_dims cl d)
  /\ (forall m, decl_cm m = spec_cm m).
Proof.
  split; [|split; [|split]]; [|intros; now apply eff_vis_ideal|intros; now apply spec_dims_ideal|exact decl_cm_spec].
  intros path ct n cm secs eqs algs [k l] r cls [k' l'] H. apply class_ok in H.
  destruct H as (syms & imports & nested & -> & Hs & _). eexists _, nested. split; [reflexivity|exact Hs].
Qed.
Print Assumptions C04_variants.

(* the defects of the code before the repairs:
   `model M public Real a; protected Real b; public Real c; end M;` -> a was PRIVATE *)
Theorem C04_visibility_refuted :
  vis_of_first (run_file prefix_variant [vis_witness]) = [("a", Private); ("b", Protected); ("c", Public)]
  /\ vis_of_first (run_file head_variant [vis_witness]) = [("a", Public); ("b", Protected); ("c", Public)].
Proof. split; vm_compute; reflexivity. Qed.
Print Assumptions C04_visibility_refuted.

(* `model M Real[2] x[3]; end M;` -> dimensions were [[2]], the declarator's 3 lost *)
Theorem C04_dimensions_refuted :
  dims_of_first (run_file prefix_variant [dims_witness]) = [[["2"]]]
  /\ dims_of_first (run_file head_variant [dims_witness]) = [[["3"; "2"]]].
Proof. split; vm_compute; reflexivity. Qed.
Print Assumptions C04_dimensions_refuted.

(* `import A.{C,D,E};` bound C and the single name "D,E" *)
Theorem C04_import_refuted :
  import_names prefix_variant ["C"; "D"; "E"] = ["C"; "D,E"] /\ import_names head_variant ["C"; "D"; "E"] = ["C"; "D"; "E"].
Proof. split; reflexivity. Qed.
Print Assumptions C04_import_refuted.

(* non-vacuity: a class with two prefixes, clause and declarator dimensions, a modification with a declaration
   value, three sections, an extends clause with a modification, an import, a nested class, initial and non-initial
   sections is accepted; orders 0 1 3 5 (the extends modification and the nested class's symbol take 2 and 4) *)
Example C04_example :
  exists own nested st',
    do_element head_variant [] example_class (mkK [] [] [], init_lst) = Ok ((ROther, own :: nested), st')
    /\ map s_name (o_syms own) = ["a"; "b"; "i"; "p"]
    /\ map s_order (o_syms own) = [0; 1; 3; 5]
    /\ map s_vis (o_syms own) = [Private; Private; Public; Protected]
    /\ map s_prefixes (o_syms own) = [["parameter"; "input"]; ["parameter"; "input"]; []; []]
    /\ o_eqs own = ["(= a b)"; "(= i 2)"] /\ o_ieqs own = ["(= a 1)"]
    /\ NoDup (map s_pid (o_syms own)) /\ NoDup (map s_did (o_syms own)) /\ NoDup (map s_tid (o_syms own))
    /\ length nested = 1 /\ labels_once [(Unl, tt); (Pub, tt); (Pro, tt)] = true
    /\ map kord (l_trace (snd st')) = [0; 1; 3; 4; 5]
    /\ modelled example_class = true /\ modelled redecl_example = true
    /\ (forall st, exists own nested st'',
          do_element head_variant [] redecl_example st = Ok ((ROther, own :: nested), st'')
          /\ map s_name (o_syms own) = ["z"]).
Proof.
  exists (fst (fst example_out)), (snd (fst example_out)), (snd example_out).
  split; [reflexivity|]. repeat split; try reflexivity; try (apply NoDup_eval; reflexivity).
  (* `lazy` first: the witnesses are then normal forms, and Qed does not evaluate the walk again *)
  intros [k l]. eexists; eexists; eexists. split; [lazy; reflexivity|reflexivity].
Qed.
Print Assumptions C04_example.
