(* C27 — assembling a library from several files is order-independent.
   Property theorems only; model in Model/C27_merge.v, proofs in Proofs/C27_merge.v (which defines [wf],
   [compatible], [split_ok], [omerge]).

   Vocabulary.  A tree is a header (type, ten adoptable attributes as token lists, three flags) plus an
   insertion-ordered dictionary of nested classes.  [get t p] is the header of the class at dotted
   path p (None if there is no such class).  Two trees with the same [get] have the same classes, with
   the same contents, at every path, and the same SET of child names under every class
   (n is a child of the class at p  iff  get t (p ++ [n]) <> None); the insertion ORDER of the
   children is the only thing lookup-equality ignores (it does differ between file orders; that the real
   flattening does not depend on it is checked by the oracle on the implementation, not proved).
   [merge_api] = casadi api._compile_model (first parse is the receiver), [merge_compiler] =
   tools/compiler.py parse_all (empty Tree is the receiver).  [wf] = no duplicate keys (a Python dict).
   [compatible ts]: whenever two files both contain a class at the same path, the two headers have the
   same type and, attribute by attribute, at most one of them is non-empty or both are equal. *)
From Coq Require Import List Bool PArith Arith Permutation.
From PV Require Import Model.C27_merge Model.C27_flat Proofs.C27_merge Proofs.C27_flat.
Import ListNotations.

(* Central theorem: for every compatible set of parsed files, of any size and nesting depth, every
   permutation of the files gives lookup-equal assembled trees, with both drivers. *)
Theorem C27_merge_perm (ts ts' : list node) (p : list name) :
  Permutation ts ts' -> Forall wf ts -> compatible ts ->
  get (merge_api ts) p = get (merge_api ts') p /\
  get (merge_compiler ts) p = get (merge_compiler ts') p.
Proof. exact (observation_perm (fun t => get t p) (fun t t' H => H p) ts ts'). Qed.
Print Assumptions C27_merge_perm.

(* The property's own hypothesis: a library split into files with `within` clauses - two files that both
   know a class either agree on it or one of them only has the placeholder package that file_to_tree
   creates for the within clause (and the class really is a package).  This includes "the package's own
   file merged after files that declare classes within it". *)
Theorem C27_split_perm (fs fs' : list file) (p : list name) :
  Permutation fs fs' ->
  Forall wf (map file_to_tree fs) -> split_ok (map file_to_tree fs) ->
  get (merge_api (map file_to_tree fs)) p = get (merge_api (map file_to_tree fs')) p /\
  get (merge_compiler (map file_to_tree fs)) p = get (merge_compiler (map file_to_tree fs')) p.
Proof.
  intros HP Hwf Hs. apply C27_merge_perm; [apply Permutation_map | | apply split_ok_compatible]; assumption.
Qed.
Print Assumptions C27_split_perm.

(* What the assembled tree contains, for ANY list of well-formed files (no compatibility needed): the
   header at p is the left-to-right header merge of the headers the files have at p (first non-empty
   value of each attribute wins, flags are or-ed, the first file that knows the class fixes its type). *)
Theorem C27_lookup_is_fold (t : node) (ts : list node) (p : list name) :
  Forall wf ts ->
  get (merge_api (t :: ts)) p = fold_right omerge None (map (fun t => get t p) (t :: ts)).
Proof. exact (get_merge_api t ts p). Qed.
Print Assumptions C27_lookup_is_fold.

(* the two drivers build the same classes *)
Theorem C27_drivers_agree (t : node) (ts : list node) (n : name) (p : list name) :
  Forall wf (t :: ts) ->
  get (merge_compiler (t :: ts)) (n :: p) = get (merge_api (t :: ts)) (n :: p).
Proof.
  intros Hwf. rewrite get_merge_compiler by assumption.
  inversion Hwf; subst. rewrite get_merge_api by assumption. reflexivity.
Qed.
Print Assumptions C27_drivers_agree.

(* tools/compiler.parse_all(paths, tree) called several times on one tree (package.mo in one call, `within` files in
   another): adding the files batch by batch is the same left fold as adding them in one call, so every theorem
   about [merge_compiler] covers every batching of every file order.  (That the real parse_all hooks each batch
   into the caller's tree with Tree.extend is checked by the oracle: every partition of every permutation into
   successive calls must give the tree / flattened models of the one-call run.) *)
Theorem C27_compiler_batches (gs : list (list node)) :
  merge_compiler (concat gs) = fold_left (fun t g => fold_left extend g t) gs empty_root.
Proof. exact (fold_extend_batches gs empty_root). Qed.
Print Assumptions C27_compiler_batches.

(* ---- the flattened models ----
   [flat E t top] (Model/C27_flat.v) is an executable model of the part of pymoca.tree.flatten that decides which
   variables the flat model of class `top` has: _find_class (nested classes, qualified imports, parent scopes,
   encapsulated), flatten_extends (bases first, dict.update), build_instance_tree (symbol types - inherited ones
   too - looked up from the deriving class; a component's modifiers move into its instance), the pulling of
   package constants referenced by qualified name (ConstantReferenceApplier / _find_constant_symbol), dotted
   instance names.  E decodes the content tokens of the headers (symbols: name, type, references; extends;
   imports; equations' references) and is the same for every file order.  It reaches the tree only through [get]: *)
Theorem C27_flat_respects_lookup (E : denv) (t t' : node) :
  (forall p, get t p = get t' p) -> forall top, flat E t top = flat E t' top.
Proof. intros H top. unfold flat. apply flatG_ext. exact H. Qed.
Print Assumptions C27_flat_respects_lookup.

(* The property at the level of flattened models (of the flattening MODEL): same flat variable list for every
   permutation of a compatible set of files, both drivers. *)
Theorem C27_flatten_perm (E : denv) (top : path) (ts ts' : list node) :
  Permutation ts ts' -> Forall wf ts -> compatible ts ->
  flat E (merge_api ts) top = flat E (merge_api ts') top /\
  flat E (merge_compiler ts) top = flat E (merge_compiler ts') top.
Proof.
  apply (observation_perm (fun t => flat E t top)).
  intros t t' H. now apply C27_flat_respects_lookup.
Qed.
Print Assumptions C27_flatten_perm.

Theorem C27_flatten_split_perm (E : denv) (top : path) (fs fs' : list file) :
  Permutation fs fs' -> Forall wf (map file_to_tree fs) -> split_ok (map file_to_tree fs) ->
  flat E (merge_api (map file_to_tree fs)) top = flat E (merge_api (map file_to_tree fs')) top /\
  flat E (merge_compiler (map file_to_tree fs)) top = flat E (merge_compiler (map file_to_tree fs')) top.
Proof.
  intros HP Hwf Hs.
  apply C27_flatten_perm; [apply Permutation_map | | apply split_ok_compatible]; assumption.
Qed.
Print Assumptions C27_flatten_split_perm.

(* PARTIAL.  What is still not proved about the REAL pymoca.tree.flatten: that it equals [flat].  [flat] is tied to it
   on every run by the correspondence (ordered declared variables with their types, set of pulled constants, for every
   model of every generated library, evaluated on the model-merged tree of every file order), not by proof; values,
   attributes and equations of the flat model are not in [flat] at all (the oracle compares them on the real code).
   ASSUMED about dictionary iteration: [flat] never iterates over a nested-class dictionary, classes are reached by key
   only; the order of a class's SYMBOLS is the order the parser built inside one file (content tokens of one header), so
   it cannot depend on the file order.  pymoca does iterate nested-class dictionaries in build_instance_tree
   (tree.py:403-426, eager instantiation of the nested classes of an INSTANTIATED class, in insertion order) and copies
   them in flatten_extends (293, 315): for that order to be file-order independent the nested classes of every
   instantiated class (the model, its bases, its component classes) must come from one file - true when `within` names
   packages and models are not split, which is the property's domain; the generator never nests classes in models.
   `import P.*` is not modelled (such libraries are skipped by the flat correspondence and counted).
   The general statement below covers ANY observation that respects lookup-equality. *)
Theorem C27_flatten_perm_partial (A : Type) (F : node -> A) :
  (forall t t', (forall p, get t p = get t' p) -> F t = F t') ->
  forall ts ts', Permutation ts ts' -> Forall wf ts -> compatible ts ->
  F (merge_api ts) = F (merge_api ts') /\ F (merge_compiler ts) = F (merge_compiler ts').
Proof. exact (observation_perm F). Qed.
Print Assumptions C27_flatten_perm_partial.

(* non-vacuity of the flattening model: package file last / first, the model's variable and the pulled constant *)
Example C27_flat_example :
  flat fx_E (merge_api (map file_to_tree [fx_f1; fx_f0])) [10; 12]%positive
    = Some [([41], 50, false); ([10; 40], 50, true)]%positive /\
  flat fx_E (merge_compiler (map file_to_tree [fx_f0; fx_f1])) [10; 12]%positive
    = Some [([41], 50, false); ([10; 40], 50, true)]%positive.
Proof. vm_compute. split; reflexivity. Qed.
Print Assumptions C27_flat_example.

(* the boolean checks that the correspondence evaluates on the really parsed files of every generated
   compatible split imply the hypotheses of C27_merge_perm *)
Theorem C27_checked_hypotheses_sound (ts : list node) :
  forallb wfb ts = true -> compat_filesb ts = true -> Forall wf ts /\ compatible ts.
Proof. intros H1 H2. split; [apply forallb_wfb; exact H1 | apply compat_filesb_sound; exact H2]. Qed.
Print Assumptions C27_checked_hypotheses_sound.

(* the compatibility hypothesis is necessary: two files that both give symbols to package P *)
Theorem C27_incompatible_is_order_dependent :
  exists ts ts' p, Permutation ts ts' /\ Forall wf ts /\ get (merge_api ts) p <> get (merge_api ts') p.
Proof.
  exists [bad_a; bad_b], [bad_b; bad_a], [10%positive]. split; [apply perm_swap|]. split.
  - apply forallb_wfb. vm_compute. reflexivity.
  - vm_compute. intros H; discriminate H.
Qed.
Print Assumptions C27_incompatible_is_order_dependent.

(* non-vacuity: a package file, a `within P` file and a `within P.Q` file (Q only a placeholder) satisfy
   the hypotheses; merged package-file-last, P keeps its constants and P.Q.S its contents *)
Example C27_example :
  (Forall wf ex_ts /\ compatible ex_ts) /\
  get (merge_api (map file_to_tree [ex_f2; ex_f1; ex_f0])) [10%positive] = Some (ex_h 1 [21; 22]%positive [])
  /\ get (merge_api (map file_to_tree [ex_f2; ex_f1; ex_f0])) [10; 13; 14]%positive = Some (ex_h 3 [25]%positive [33]%positive).
Proof.
  split; [split; [apply forallb_wfb | apply compat_filesb_sound]; vm_compute; reflexivity|].
  vm_compute. split; reflexivity.
Qed.
Print Assumptions C27_example.
