(* C15 — simplification keeps regular systems square and self-contained.  Same model as C14.

   Square: each of eliminate_constant_assignments, the eliminable pass and detect_aliases pairs every
   dropped equation with exactly one removed algebraic variable.  detect_aliases
   (C15_square_detect_aliases) rests on the invariant `relinv` of the alias relation (member names
   pairwise distinct, no canonical is a member, no member in do_not_eliminate — preserved by
   _make_alias thanks to the swap and the do-not-eliminate test; an add that joins two classes adds
   exactly one member).  The bookkeeping is composed for _simplify_once and simplify()
   (C15_simplify_once_square, C15_square) for every subset of the modelled options, hypotheses
   (run_ok (passes15 o)) stated on the model reaching detect_aliases: relinv holds there (trivial in
   the first iteration: the relation is empty), the symbols of recognised alias equations are
   declared (no alias with `time`), no alias equation is redundant (da_nored; true for regular
   models), plus NoDup of the algebraic variables.  The contradictory pair (d2f54aa) is covered: the
   equation is kept.
   Closed: the value-into-value loop on ACYCLIC definitions that CONVERGED reaches a closed form
   (C15_loop_closed_form: resolved values mention no defined variable and only symbols of the
   original values); hence each of the seven passes keeps the model closed under its carve-out
   hypothesis, and C15_closed_simplify_once_partial composes them over _simplify_once (see the
   comment at the theorem for the hypotheses and for why the name keeps `_partial`).  The statement
   is false for cyclic eliminable assignments (C15_closed_cyclic_refuted, known finding).
   STILL OPEN: closedness composed over simplify() (the outer iteration); preservation of
   `vals_closed` by the passes (it is checked on every generated model, C15_vals_closed_checked, and
   stays a hypothesis at each value pass after the first); the eliminable-STATES path; propagation
   of relinv from one outer iteration to the next. *)
From Coq Require Import ZArith QArith Qcanon List Bool PArith.
Import ListNotations.
From PV Require Import Model.C14_simplify Proofs.C14_simplify Proofs.C14_compose Proofs.C15_square Proofs.C15_closed Proofs.C14_example.

(* eliminate_constant_assignments: every dropped equation is paired with exactly one removed
   algebraic variable (which becomes a constant); states and derivatives are untouched *)
Theorem C15_square_constant_assignments (m : model) :
  NoDup (algs m) ->
  let m' := elim_const_assignments m in
  (length (algs m') + length (eqs m) = length (algs m) + length (eqs m'))%nat
  /\ ders m' = ders m /\ states m' = states m.
Proof. intro ND. destruct (square_elim_const_assignments m ND) as [S1 [S2 [S3 _]]]. auto. Qed.
Print Assumptions C15_square_constant_assignments.

(* eliminable_variable_expression: every dropped equation is paired with exactly one removed
   algebraic variable; states, derivatives, inputs, parameters and constants are untouched.
   (`failed = false` excludes the double extraction of one variable, which raises in pymoca.) *)
Theorem C15_square_eliminable (mt : list name) (m : model) :
  NoDup (algs m) -> failed m = false -> failed (eliminate_vars mt m) = false ->
  let m' := eliminate_vars mt m in
  (length (algs m') + length (eqs m) = length (algs m) + length (eqs m'))%nat
  /\ ders m' = ders m /\ states m' = states m /\ inputs m' = inputs m
  /\ params m' = params m /\ consts m' = consts m.
Proof.
  intros ND _ Hf'. destruct (square_eliminate_vars mt m ND Hf') as [S1 [S2 [S3 [S4 [S5 [S6 _]]]]]]. auto 6.
Qed.
Print Assumptions C15_square_eliminable.

(* detect_aliases: every dropped equation is paired with exactly one removed algebraic variable;
   derivatives, states, inputs, parameters and constants are never eliminated *)
Theorem C15_square_detect_aliases (ad : bool) (m : model) :
  NoDup (algs m) -> relinv (dne_of m) (arel m) ->
  da_decl (pc_of m) (algs m) (dne_of m) (eqs m) ->
  da_nored ad (algs m) (ders m) (dne_of m) (pc_of m) (arel m) (eqs m) = true ->
  failed (detect_aliases ad m) = false ->
  let m' := detect_aliases ad m in
  (length (algs m') + length (eqs m) = length (algs m) + length (eqs m'))%nat
  /\ ders m' = ders m /\ states m' = states m /\ inputs m' = inputs m
  /\ params m' = params m /\ consts m' = consts m /\ NoDup (algs m').
Proof. exact (square_detect_aliases ad m). Qed.
Print Assumptions C15_square_detect_aliases.

(* `sq m m'`: |der_states| + |alg_states| - |equations| is unchanged and der_states, states, inputs
   are untouched.  _simplify_once: the seven modelled passes in the code's order, any option subset *)
Theorem C15_simplify_once_square (o : options) (m : model) :
  run_ok (passes15 o) m -> NoDup (algs m) -> failed (simplify_once o m) = false ->
  sq m (simplify_once o m) /\ NoDup (algs (simplify_once o m)).
Proof. exact (simplify_once_square o m). Qed.
Print Assumptions C15_simplify_once_square.

(* simplify(): the outer iteration with SIMPLIFICATION_LOOP_LIMIT *)
Theorem C15_square (o : options) (m : model) :
  loop_ok15 SIMPLIFICATION_LOOP_LIMIT o 0%nat m -> NoDup (algs m) -> failed (simplify o m) = false ->
  sq m (simplify o m).
Proof. exact (simplify_square o m). Qed.
Print Assumptions C15_square.

(* non-vacuity: all hypotheses of C15_square are proved for the regular example *)
Example C15_square_example : sq m_ex (simplify o_ex m_ex).
Proof. exact ex_square. Qed.
Print Assumptions C15_square_example.

(* any substituting pass: if every symbol outside dom s was declared (D) and the substituted
   values only use declared symbols, the substituted equations only use declared symbols —
   CasADi's re-simplification never invents a symbol *)
Theorem C15_closed_substitution (D : name -> Prop) (s : sub) (es : list expr) :
  (forall e x, In e es -> occurs x e = true -> lookup x s = None -> D x) ->
  (forall y v x, lookup y s = Some v -> occurs x v = true -> D x) ->
  forall e x, In e (map (subst s) es) -> occurs x e = true -> D x.
Proof. exact (closed_subst D s es). Qed.
Print Assumptions C15_closed_substitution.

(* eliminable pass: when the loop's resolved values are free of eliminated variables (acyclic
   assignments, converged), no remaining equation or initial equation mentions one *)
Theorem C15_closed_eliminable (mt : list name) (m : model) :
  let '(al, defs, kept, u) := elim_loop (states m) (algs m) (algs m) mt (eqs m) in
  let vars := map fst defs in
  let vals := fst (subst_fix SUBSTITUTE_LOOP_LIMIT vars (map snd defs)) in
  length vals = length vars ->
  (forall v x, In v vals -> In x vars -> occurs x v = false) ->
  forall e x, In e (eqs (eliminate_vars mt m) ++ ieqs (eliminate_vars mt m)) ->
              u = false -> has_dup vars = false -> defs <> [] -> In x vars -> occurs x e = false.
Proof.
  pose proof (eliminate_vars_gone mt m) as H.
  destruct (elim_loop (states m) (algs m) (algs m) mt (eqs m)) as [[[al defs] kept] u].
  cbv zeta in *. intros _ Hfree e x Hin Hu Hd _. exact (H Hfree e x Hin Hu Hd).
Qed.
Print Assumptions C15_closed_eliminable.

(* the fuelled substitution loop (model.py:553-562 / 593-602 / 894-903) on acyclic definitions,
   when it converged: no resolved value mentions a defined variable, and every symbol of a resolved
   value occurs in an original value *)
Theorem C15_loop_closed_form (d : sub) :
  acyclic d ->
  let res := subst_fix SUBSTITUTE_LOOP_LIMIT (map fst d) (map snd d) in
  snd res = true ->
  let s := combine (map fst d) (fst res) in
  (forall x v y w, In (x, v) s -> lookup y s = Some w -> occurs y v = false)
  /\ (forall x, sym_in s x -> sym_in d x).
Proof. exact (loop_closed_form d). Qed.
Print Assumptions C15_loop_closed_form.

(* `closed tm m`: every symbol of the remaining equations and initial equations is a declared
   variable / parameter / constant of m or `time` (tm).  The eliminable pass preserves it for
   acyclic assignments when no iteration-limit warning was raised *)
Theorem C15_closed_eliminable_acyclic (tm : name) (mt : list name) (m : model) :
  closed tm m -> acyclic (elim_defs mt m) -> failed (eliminate_vars mt m) = false ->
  warned m = false -> warned (eliminate_vars mt m) = false ->
  closed tm (eliminate_vars mt m).
Proof. exact (closed_eliminate_vars_acyclic tm mt m). Qed.
Print Assumptions C15_closed_eliminable_acyclic.

(* bookkeeping passes keep the model closed, unconditionally *)
Theorem C15_closed_constant_assignments (tm : name) (m : model) :
  closed tm m -> closed tm (elim_const_assignments m).
Proof. exact (closed_elim_const_assignments tm m). Qed.
Print Assumptions C15_closed_constant_assignments.

Theorem C15_closed_replace_parameter_values (tm : name) (m : model) :
  closed tm m -> closed tm (replace_param_values m).
Proof. exact (closed_replace_param_values tm m). Qed.
Print Assumptions C15_closed_replace_parameter_values.

(* replace_parameter_expressions / replace_constant_expressions: closed when the VALUES reaching the
   pass only mention declared symbols, the definitions are acyclic and the loop converged *)
Theorem C15_closed_replace_expressions (tm : name) (on_params : bool) (m : model) :
  closed tm m -> vals_closed tm m -> acyclic (expr_defs on_params m) ->
  warned m = false -> warned (replace_exprs on_params m) = false ->
  closed tm (replace_exprs on_params m).
Proof. exact (closed_replace_exprs tm on_params m). Qed.
Print Assumptions C15_closed_replace_expressions.

(* replace_constant_values: after the resolve loop (acyclic, converged) the substituted values mention
   no constant and only declared symbols, so dropping ALL constants leaves the model closed *)
Theorem C15_closed_replace_constant_values (tm : name) (m : model) :
  closed tm m -> vals_closed tm m -> acyclic (const_defs m) ->
  failed (replace_const_values m) = false -> warned m = false ->
  warned (replace_const_values m) = false ->
  closed tm (replace_const_values m).
Proof. exact (closed_replace_const_values tm m). Qed.
Print Assumptions C15_closed_replace_constant_values.

(* detect_aliases: every alias is replaced by +- its canonical variable, which by the invariant of
   the alias relation is not itself eliminated and (the `canonical in all_states` test) is declared *)
Theorem C15_closed_detect_aliases (tm : name) (ad : bool) (m : model) :
  closed tm m -> relinv (dne_of m) (arel m) -> da_decl (pc_of m) (algs m) (dne_of m) (eqs m) ->
  da_nored ad (algs m) (ders m) (dne_of m) (pc_of m) (arel m) (eqs m) = true ->
  failed (detect_aliases ad m) = false ->
  closed tm (detect_aliases ad m).
Proof. intros Hc Inv Hd _. exact (closed_detect_aliases tm ad m Hc Inv Hd). Qed.
Print Assumptions C15_closed_detect_aliases.

(* the value-closedness hypothesis is a decidable check; `./check C15` evaluates it inside coqc on
   EVERY generated pre-simplification model (obligation hypothesis:vals_closedb-holds-of-every-
   generated-model), so for the generated models it is tied, not assumed *)
Theorem C15_vals_closed_checked (tm : name) (m : model) :
  vals_closedb m = true -> vals_closed tm m.
Proof. exact (vals_closedb_sound tm m). Qed.
Print Assumptions C15_vals_closed_checked.

(* composition over _simplify_once (any subset of the modelled options).  In `passes_cl tm o` ALL
   SEVEN passes are proved from carve-out hypotheses stated on the model reaching each pass:
   none for eliminate_constant_assignments / replace_parameter_values; values closed + acyclic +
   converged for replace_parameter/constant_expressions and replace_constant_values; no eliminable
   state + acyclic + converged for the eliminable pass; the alias invariant and declared alias
   symbols for detect_aliases (H_da15 also asks for `no redundant alias`, which closedness does not
   use).  The name keeps `_partial` because
   (i) `vals_closed` is tied for the GENERATED model (C15_vals_closed_checked) but its preservation by
   each pass is not proved, so it stays a hypothesis at each value pass after the first, and (ii) the
   eliminable-STATES path (eliminate_vars2) is excluded by `no_elim_state` *)
Theorem C15_closed_simplify_once_partial (tm : name) (o : options) (m : model) :
  run_ok (passes_cl tm o) m -> closed tm m -> failed (simplify_once o m) = false ->
  closed tm (simplify_once o m).
Proof. exact (simplify_once_closed_partial tm o m). Qed.
Print Assumptions C15_closed_simplify_once_partial.

(* cyclic eliminable assignments '_e1 = _e2; _e2 = _e1; a3 = _e1 + 1': the value loop converges
   to the identity substitution (no warning); the only remaining unknown is a3 but the remaining
   equation still mentions _e1 *)
Theorem C15_closed_cyclic_refuted :
  exists (o : options) (m : model),
    let m' := simplify o m in
    failed m' = false /\ warned m' = false /\ algs m' = [3%positive] /\
    existsb (fun e => occurs 1%positive e || occurs 2%positive e) (eqs m') = true.
Proof. exists o_elim12, m_osc. exact osc_not_closed. Qed.
Print Assumptions C15_closed_cyclic_refuted.

(* non-vacuity: the regular example of C14 has distinct unknowns; simplify() takes it from 3
   unknowns / 3 equations to 1 unknown / 1 equation *)
Example C15_example :
  NoDup (algs m_ex) /\ length (algs m_ex) = length (eqs m_ex) /\
  length (algs (simplify o_ex m_ex)) = length (eqs (simplify o_ex m_ex)).
Proof.
  split; [exact ex_nodup | split; vm_compute; reflexivity].
Qed.
Print Assumptions C15_example.
