(* C05 — flattening never changes what later flattening produces.
   Property theorems; what they rest on is proved in Proofs/C05_frame.v.
   Model (Model/C05_frame.v): a request for class p runs an ARBITRARY program `prog_of p` that reads
   the parsed tree only through three queries (class lookup `find` = _find_class with import memo and
   unqualified imports; effective value of a constant; content of a class); it then writes
   arbitrarily inside the FOOTPRINT of the looked-up class and allocates, and the neutral fields of
   the parsed tree move by the three exact writes (`nstar`: import memo caching the reference found,
   constants renamed/modified in place, argument hooks bound to self).
   No theorem below has a premise about results: that the three writes are invisible is PROVED
   (Proofs/C05_frame.v exec_neutral, via find_memo_eq: lookup with a sound memo = lookup without).
   What stays trusted: the real flatten reads/writes the parsed tree only as modelled (snapshot
   correspondence + lookup correspondence + sequence oracle). *)
From Coq Require Import List Arith Bool.
From PV Require Import Lib.ObjGraph Model.C06_deepcopy Proofs.C06_deepcopy Model.C05_frame Proofs.C05_frame.
Import ListNotations.

(* `sd` = how ast.py treats a dotted name found through an unqualified import (Model/C05_frame.v find);
   it is read from the source on every run.  sd = true is /repo as it is (it has the repair
   fixes/C05_import_dotted.diff); sd = false is the code before that repair. *)

(* frame: with copy=True (tree.py `root.find_class(class_name, copy=True)`, as it is) one request leaves the parsed tree EXACTLY as it
   was — whatever flatten writes inside its footprint — and moves the neutral fields only by the
   three exact writes *)
Theorem C05_frame (R : Type) (prog_of : path -> prog R) (sd : bool) (st st' : world * xmap) (p : path) (r : R) (t0 : tree) :
  nth_error (fst st) 0 = Some t0 -> fstep R prog_of sd true st p st' r ->
  r = exec sd (prog_of p) t0 (snd st) /\ nth_error (fst st') 0 = Some t0 /\ nstar t0 (snd st) (snd st').
Proof. exact (frame R prog_of sd st p st' r t0). Qed.
Print Assumptions C05_frame.

(* class lookup with a sound import memo = the un-memoised search (induction on the climb): for every
   (dotted) name when sd = true, for simple names whatever sd *)
Theorem C05_memo_transparent (sd : bool) (t : tree) (xm : xmap) (rp : list key) (k : key) (ks : list key) :
  memo_sound t xm -> sd = true \/ ks = [] ->
  find sd t xm rp k ks = find0 sd t (fun p => stars (xget xm p)) rp k ks.
Proof. intros Hs Hc. exact (find_memo_eq sd t xm ks Hs Hc rp k). Qed.
Print Assumptions C05_memo_transparent.

(* the three exact writes are invisible to every request *)
Theorem C05_neutral (R : Type) (t : tree) (xm xm' : xmap) (pr : prog R) :
  memo_sound t xm -> nstar t xm xm' -> exec true pr t xm' = exec true pr t xm.
Proof. intros Hs Hn. exact (exec_neutral true t xm xm' Hs Hn pr (okprog_true pr)). Qed.
Print Assumptions C05_neutral.

(* sequences: any finite sequence of requests (repeats, different classes, classes used by earlier
   ones) gives at every step the result of that request on the initial state (a fresh parse: empty
   memos, `fresh_sound`) — no premise about results *)
Theorem C05_sequences (R : Type) (prog_of : path -> prog R)
    (ps : list path) (st st' : world * xmap) (rs : list R) (t0 : tree) :
  nth_error (fst st) 0 = Some t0 -> memo_sound t0 (snd st) ->
  fseq R prog_of true true st ps st' rs -> rs = map (fun p => exec true (prog_of p) t0 (snd st)) ps.
Proof.
  exact (sequences R prog_of true (fun p => okprog_true (prog_of p)) ps st st' rs t0).
Qed.
Print Assumptions C05_sequences.

(* the code before fixes/C05_import_dotted.diff (sd = false; known finding dotted-name-through-unqualified-
   import): the memo IS visible to a dotted lookup (witness), and the sequence theorem holds for the
   requests whose lookups through the parsed tree are all simple names *)
Theorem C05_dotted_refuted :
  memo_sound exd_tree exd_xm0 /\ nstar exd_tree exd_xm0 exd_xm1 /\
  find false exd_tree exd_xm0 [5] 2 [3] = Some [1; 2] /\
  find false exd_tree exd_xm1 [5] 2 [3] = Some [1; 2; 3] /\
  find true exd_tree exd_xm0 [5] 2 [3] = Some [1; 2; 3] /\
  find true exd_tree exd_xm1 [5] 2 [3] = Some [1; 2; 3].
Proof.
  split.
  { intros p k q M. unfold xget, exd_xm0 in M. cbn [assoc] in M.
    destruct (path_dec p [5]); discriminate M. }
  split.
  { eapply nstar_step; [exact (NS_memo exd_tree exd_xm0 [5] 2 [1; 2] eq_refl)|apply nstar_refl]. }
  repeat split; vm_compute; reflexivity.
Qed.
Print Assumptions C05_dotted_refuted.

(* C05_sequences for sd = false and programs whose lookups are simple names (`okprog false`) *)
Theorem C05_sequences_carved (R : Type) (prog_of : path -> prog R)
    (ps : list path) (st st' : world * xmap) (rs : list R) (t0 : tree) :
  (forall p, okprog false (prog_of p)) ->
  nth_error (fst st) 0 = Some t0 -> memo_sound t0 (snd st) ->
  fseq R prog_of false true st ps st' rs -> rs = map (fun p => exec false (prog_of p) t0 (snd st)) ps.
Proof.
  intros Hok. exact (sequences R prog_of false Hok ps st st' rs t0).
Qed.
Print Assumptions C05_sequences_carved.

(* the lookup of an existing class with copy=True is C06's detached copy: a new tree with the
   same names and content whose root keeps the ORIGINAL parent *)
Theorem C05_lookup_copy (w : world) (p : path) (i0 : info) (rest : list (path * info)) :
  wf_at w (0, p) i0 rest -> get w (0, p) <> None ->
  lookup true w p = Some (w ++ [spec_copy (length w) i0 rest], (length w, [])).
Proof.
  intros H G. unfold lookup. destruct (get w (0, p)); [|congruence].
  rewrite (deepcopy_spec _ _ _ _ H). reflexivity.
Qed.
Print Assumptions C05_lookup_copy.

(* copy=False (tree.py before bc8343b): a footprint-conforming flatten (a symbol of the
   requested class consumed in place) makes the second identical request differ *)
Theorem C05_refuted :
  exists st st1 st2 p r1 r2,
    fseq (option cdata) ex5_prog true false st [p; p] st2 [r1; r2] /\
    fstep (option cdata) ex5_prog true false st p st1 r1 /\ r1 <> r2.
Proof.
  exists ([ex5_tree], []), ([ex5_tree'], []), ([ex5_tree'], []), [1], (Some (CD [4] 1)), (Some (CD [] 1)).
  assert (S1 : fstep (option cdata) ex5_prog true false ([ex5_tree], []) [1] ([ex5_tree'], []) (Some (CD [4] 1))).
  { exists ex5_tree. split; [reflexivity|]. split; [reflexivity|]. split; [apply nstar_refl|].
    change (lookup false (fst ([ex5_tree], @nil (path * ext))) [1]) with (Some ([ex5_tree], (0, [1]))).
    apply ex5_footprint. }
  assert (S2 : fstep (option cdata) ex5_prog true false ([ex5_tree'], []) [1] ([ex5_tree'], []) (Some (CD [] 1))).
  { exists ex5_tree'. split; [reflexivity|]. split; [reflexivity|]. split; [apply nstar_refl|].
    change (lookup false (fst ([ex5_tree'], @nil (path * ext))) [1]) with (Some ([ex5_tree'], (0, [1]))).
    apply footprint_refl. }
  split; [|split; [exact S1|intros H; discriminate H]].
  eapply fseq_cons; [exact S1|]. eapply fseq_cons; [exact S2|]. apply fseq_nil.
Qed.
Print Assumptions C05_refuted.

(* non-vacuity: a package with two unqualified imports; the first request memoises the reference
   found (NS_memo), a constant is modified in place (NS_const); the second request returns the same *)
Definition ex5_lib : tree :=
  [ ([], Info (CD [] 0) None None);
    ([1], Info (CD [] 0) (Some (0, [])) None); ([1; 7], Info (CD [3] 1) (Some (0, [1])) None);
    ([2], Info (CD [] 0) (Some (0, [])) None); ([2; 8], Info (CD [4] 1) (Some (0, [2])) None);
    ([5], Info (CD [] 0) (Some (0, [])) None); ([5; 6], Info (CD [9] 0) (Some (0, [5])) None) ].
Definition ex5_xm : xmap := [ ([5], Ext [[1]; [2]] [] [(3, CSym 0 10 (Some 11))] false) ].
Definition ex5_prog2 (p : path) : prog (option path * option nat) :=
  AskFind [6; 5] 7 [] (fun a => AskConst [5] 3 (fun b => Ret (a, b))).

Example C05_example :
  memo_sound ex5_lib ex5_xm /\
  exists st', fseq _ ex5_prog2 true true ([ex5_lib], ex5_xm) [[5; 6]; [5; 6]] st'
                   [(Some [1; 7], Some 11); (Some [1; 7], Some 11)] /\
              snd st' <> ex5_xm.
Proof.
  split; [apply fresh_sound; intros p; unfold xget, ex5_xm; cbn [assoc];
          destruct (path_dec p [5]); reflexivity|].
  set (xm1 := xset ex5_xm [5] (Ext [[1]; [2]] [(7, [1; 7])] [(3, CSym 0 10 (Some 11))] false)).
  set (xm2 := xset xm1 [5] (Ext [[1]; [2]] [(7, [1; 7])] [(3, CSym 3 11 None); (3, CSym 0 10 (Some 11))] false)).
  assert (N : nstar ex5_lib ex5_xm xm2).
  { eapply nstar_step; [exact (NS_memo ex5_lib ex5_xm [5] 7 [1; 7] eq_refl)|].
    eapply nstar_step; [exact (NS_const ex5_lib xm1 [5] 3 (CSym 0 10 (Some 11)) 3 eq_refl)|].
    apply nstar_refl. }
  set (c1 := copy_ents fixed_flags 1 0 [5; 6] [] [([], Info (CD [9] 0) (Some (0, [5])) None)]).
  set (c2 := copy_ents fixed_flags 2 0 [5; 6] [] [([], Info (CD [9] 0) (Some (0, [5])) None)]).
  exists ([ex5_lib; c1; c2], xm2).
  split; [|intros H; discriminate H].
  apply fseq_cons with (st1 := ([ex5_lib; c1], xm2)).
  - exists ex5_lib. split; [reflexivity|]. split; [reflexivity|]. split; [exact N|].
    cbn [fst snd]. change (lookup true [ex5_lib] [5; 6]) with (Some ([ex5_lib] ++ [c1], (1, @nil key))).
    apply footprint_refl.
  - apply fseq_cons with (st1 := ([ex5_lib; c1; c2], xm2)); [|apply fseq_nil].
    exists ex5_lib. split; [reflexivity|]. split; [vm_compute; reflexivity|]. split; [apply nstar_refl|].
    cbn [fst snd]. change (lookup true [ex5_lib; c1] [5; 6]) with (Some ([ex5_lib; c1] ++ [c2], (2, @nil key))).
    apply footprint_refl.
Qed.
Print Assumptions C05_example.
