(* C20 — the model cache is never used when stale.
   The property theorems; the model is Model/C20_cache.v, the lemmas behind them are in Proofs/C20_cache.v;
   the concrete histories are evaluated here.

   Reading: `run g fails s0 ops` is the trace of a history; an entry (s1, a, Some r) is a
   transfer_model call made in state s1 that returned r.  `out_ok fails s1 r` says: r is the
   compile of s1's CURRENT sources (the *.mo files below the model folder and the library
   folders), CURRENT options (up to `verbose`) and CURRENT version, and if r's functions are the
   code-generated shared libraries on disk they were built for the CURRENT os.name -- or the call
   raised and compiling the current sources raises.  `g` is the table regenerated from api.py on
   every run (comparison operator of the mtime check, > or >=; exclude_options; presence of the
   version check); `cfg_ok g` is evaluated on it in the run's Tie_C20.v.  `fails` (which compiles
   raise) and the compiler itself are arbitrary.  Both routes are covered: cache (pickled
   functions) and codegen (four shared libraries + a cache file that points to them, written
   together by save_model; library_os check).

   Hypotheses of the positive theorems, exactly (legal_op / legal_op_gt):
   - every rewrite/addition of a .mo file gets an mtime strictly later than the cache file's
     (C20_fresh, the property's grant) or, more generally, one that the coded comparison calls
     newer (C20_fresh_operator: "not earlier" suffices under >=).  A write with an mtime earlier
     than the cache file's (clock going backwards) is an explicit non-goal;
   - library_folders keeps its initial value (known finding, C20_fresh_refuted);
   - mtime_check stays on (documented opt-out);
   - no .mo file is deleted or renamed in the model folder or a library folder in use; deletions
     and renames elsewhere are allowed.  Deletion is outside the property's letter ("edits ...
     additions ... option changes ... version changes"); C20_delete_refuted records what happens. *)
From Coq Require Import ZArith List Bool.
From PV Require Import Model.C20_cache Proofs.C20_cache.
Import ListNotations.

Theorem C20_fresh (g : cfg) (fails : cres -> bool) (f0 : fs) (o0 : opts) (v0 n0 : nat)
        (l0 : option (cres * nat)) (ops : list op) :
  cfg_ok g -> flag K_mtime_check o0 = true ->
  legal_gt g fails (Some (get K_library_folders o0)) (State f0 o0 v0 n0 l0 None) ops ->
  forall s1 a r, In (s1, a, Some r) (run g fails (State f0 o0 v0 n0 l0 None) ops) -> out_ok fails s1 r.
Proof. exact (fresh g fails f0 o0 v0 n0 l0 ops). Qed.
Print Assumptions C20_fresh.

(* the same for writes that are "newer" in the sense of the regenerated operator *)
Theorem C20_fresh_operator (g : cfg) (fails : cres -> bool) (f0 : fs) (o0 : opts) (v0 n0 : nat)
        (l0 : option (cres * nat)) (ops : list op) :
  cfg_ok g -> flag K_mtime_check o0 = true ->
  legal g fails (Some (get K_library_folders o0)) (State f0 o0 v0 n0 l0 None) ops ->
  forall s1 a r, In (s1, a, Some r) (run g fails (State f0 o0 v0 n0 l0 None) ops) -> out_ok fails s1 r.
Proof. intros G F. apply (fresh_from g fails (get K_library_folders o0)); [exact G | apply inv_init; exact F]. Qed.
Print Assumptions C20_fresh_operator.

(* the invariant behind it (restricted to the folders in use the tree differs from the snapshot
   only by files newer than the cache file; the cached model is the compile of the snapshot; a
   codegen cache file sits next to the libraries it was written with) holds in every reachable
   state, from any state that satisfies it *)
Theorem C20_invariant (g : cfg) (fails : cres -> bool) (L : val) (s : state) (ops : list op) :
  Inv g L s -> legal g fails (Some L) s ops -> Inv g L (final g fails s ops).
Proof. intros I0 Hl. exact (proj1 (trace_inv g fails L ops s I0 Hl)). Qed.
Print Assumptions C20_invariant.

(* The statement with library_folders allowed to change is FALSE of the faithful model, as it is
   of api.py: [Transfer; SetOptions library_folders := [2]; Transfer] is legal in every other
   respect and its second call is served from the cache with sources that are not the current ones *)
Theorem C20_fresh_refuted : legal g_now nofail None s_two h_lib /\ stale g_now s_two h_lib.
Proof. split; [vm_compute; repeat split | apply staleb_stale; vm_compute; reflexivity]. Qed.
Print Assumptions C20_fresh_refuted.

(* deleting a library source in use / renaming a library source into the model folder: the
   stale cache is served (the mtime walk only sees files that exist and are newer) *)
Theorem C20_delete_refuted : stale g_now s_two h_del /\ stale g_now s_two h_ren.
Proof. split; apply staleb_stale; vm_compute; reflexivity. Qed.
Print Assumptions C20_delete_refuted.

(* an edit whose mtime EQUALS the cache file's is served stale under `>` (g_now: strict = true) and is
   a legal, hence covered, history under `>=` *)
Theorem C20_equal_mtime_refuted :
  stale g_now s_two h_eq /\ legal g_ge nofail (Some [1]) s_two h_eq /\ ~ legal g_now nofail (Some [1]) s_two h_eq.
Proof.
  split; [apply staleb_stale; vm_compute; reflexivity|]. split; [vm_compute; repeat split|].
  vm_compute. intros (_ & H & _). discriminate H.
Qed.
Print Assumptions C20_equal_mtime_refuted.

(* non-vacuity: the hypotheses of C20_fresh hold for an 18-op history (edit, added library file,
   deletion and rename outside the folders in use, option change, version change, then codegen mode
   with a platform change) and this is its trace *)
Example C20_legal_example :
  cfg_ok g_now /\ flag K_mtime_check (o_lib [1]) = true /\
  legal_gt g_now nofail (Some (get K_library_folders (o_lib [1]))) s_two h_ok /\
  filter (fun x => match x with Some _ => true | None => false end)
         (map (fun e => snd e) (run g_now nofail s_two h_ok)) =
  [Some (Served false ([((0,0),1); ((1,0),2)], o_a, 1) None);
   Some (Served false ([((0,0),4); ((1,0),2)], o_a, 1) None);
   Some (Served false (srcs4, o_a, 1) None);
   Some (Served false (srcs4, o_b, 1) None);
   Some (Served false (srcs4, o_b, 2) None);
   Some (Served true (srcs4, o_b, 2) None);
   Some (Served false (srcs4, o_cg [1], 2) None);
   Some (Served true (srcs4, o_cg [1], 2) (Some 0));
   Some (Served false (srcs4, o_cg [1], 2) None);
   Some (Served true (srcs4, o_cg [1], 2) (Some 1))].
Proof.
  split; [apply cfg_okb_ok; reflexivity|]. split; [reflexivity|]. split.
  - vm_compute. repeat split.
  - vm_compute. reflexivity.
Qed.
Print Assumptions C20_legal_example.
