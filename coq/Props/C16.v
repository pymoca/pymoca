(* C16 — alias elimination merges variable metadata soundly.
   Property theorems; lemmas in Proofs/C16_merge.v.  `merge c als` is the model of the
   loop of Model.simplify() that folds the aliases `als` (in the set's iteration order) into the
   canonical variable `c`; `live als` are the aliases not skipped as "handled in a previous pass". *)
From Coq Require Import QArith Qcanon List Bool Permutation.
From PV Require Import Model.C16_merge Proofs.C16_merge.
Import ListNotations.

(* BOUNDS, semantically: a value x of the canonical variable lies in the merged interval iff it lies
   in the canonical's own interval and, for every alias, the alias' value (x, or -x for a negative
   alias) lies in that alias' own interval.  I.e. the result is the intersection, min and max being
   swapped and negated for negative aliases.  Any number of aliases, any order, infinite bounds. *)
Theorem C16_bounds_intersection (c : var) (als : list alias) (x : Qc) :
  inb x (merge c als) = inb x c && forallb (fun a => inb (sgn (aneg a) x) (avar a)) (live als).
Proof. exact (bounds_intersection c als x). Qed.
Print Assumptions C16_bounds_intersection.

(* BOUNDS, as a formula: min' is a member of {min_c, smin(a_i)...} that dominates all of them (their
   maximum); max' is the minimum of {max_c, smax(a_i)...}; smin/smax swap and negate for "-alias" *)
Theorem C16_bounds_formula (c : var) (als : list alias) :
  let lo := vmin c :: map smin (live als) in
  let hi := vmax c :: map smax (live als) in
  (In (vmin (merge c als)) lo /\ forall e, In e lo -> eleb e (vmin (merge c als)) = true) /\
  (In (vmax (merge c als)) hi /\ forall e, In e hi -> eleb (vmax (merge c als)) e = true).
Proof.
  cbv zeta. destruct (merge_fields c als) as (I1 & I2 & _). rewrite I1, I2.
  split; [apply (fmax_greatest eleb eleb_order)|apply (fmin_least eleb eleb_order)].
Qed.
Print Assumptions C16_bounds_formula.

(* NOMINAL: the largest among the canonical's and the aliases' nominals *)
Theorem C16_nominal (c : var) (als : list alias) :
  let ns := vnom c :: map (fun a => vnom (avar a)) (live als) in
  In (vnom (merge c als)) ns /\ forall n, In n ns -> (n <= vnom (merge c als))%Qc.
Proof.
  cbv zeta. destruct (merge_fields c als) as (_ & _ & I3 & _). rewrite I3.
  destruct (fmax_greatest qleb qleb_order (vnom c) (map (fun a => vnom (avar a)) (live als))) as [H1 H2].
  split; [exact H1|]. intros n Hn. apply qleb_le, H2, Hn.
Qed.
Print Assumptions C16_nominal.

(* FIXED: fixed iff the canonical or any (non-skipped) alias is fixed *)
Theorem C16_fixed (c : var) (als : list alias) :
  vfixed (merge c als) = true <->
  vfixed c = true \/ exists a, In a als /\ skipped a = false /\ vfixed (avar a) = true.
Proof. exact (fixed_any c als). Qed.
Print Assumptions C16_fixed.

(* START: an own start value is kept, whatever the aliases say ... *)
Theorem C16_start_kept (c : var) (als : list alias) (s : Qc) :
  vstart c = Some s -> vstart (merge c als) = Some s.
Proof. exact (start_kept c als s). Qed.
Print Assumptions C16_start_kept.

(* ... and without an own start the result is the sign-adjusted explicit start of an alias (the first
   one in iteration order that has one), or stays "default" when no alias has an explicit start *)
Theorem C16_start_taken (c : var) (als : list alias) :
  vstart c = None ->
  (vstart (merge c als) = None /\
   forall a, In a als -> skipped a = false -> vstart (avar a) = None)
  \/
  (exists l1 a l2 s, als = l1 ++ a :: l2 /\ skipped a = false /\ vstart (avar a) = Some s /\
     (forall b, In b l1 -> skipped b = false -> vstart (avar b) = None) /\
     vstart (merge c als) = Some (sgn (aneg a) s)).
Proof. exact (start_taken c als). Qed.
Print Assumptions C16_start_taken.

(* ORDER INDEPENDENCE (the code iterates a Python set): bounds, nominal, fixed and the presence of a
   start value do not depend on the iteration order.  (Which alias' start is taken does depend on
   it when several aliases carry different explicit starts; the property allows any of them.) *)
Theorem C16_order_independent (c : var) (als als' : list alias) :
  Permutation als als' ->
  vmin (merge c als) = vmin (merge c als') /\
  vmax (merge c als) = vmax (merge c als') /\
  vnom (merge c als) = vnom (merge c als') /\
  vfixed (merge c als) = vfixed (merge c als') /\
  (vstart (merge c als) = None <-> vstart (merge c als') = None).
Proof.
  intros P. pose proof (live_perm _ _ P) as PL.
  destruct (merge_fields c als) as (I1 & I2 & I3 & I4).
  destruct (merge_fields c als') as (J1 & J2 & J3 & J4).
  split; [|split; [|split; [|split]]].
  - rewrite I1, J1. apply (fmax_perm eleb eleb_order), Permutation_map, PL.
  - rewrite I2, J2. apply (fmin_perm eleb eleb_order), Permutation_map, PL.
  - rewrite I3, J3. apply (fmax_perm qleb qleb_order), Permutation_map, PL.
  - rewrite I4, J4. f_equal. apply existsb_perm, PL.
  - rewrite !start_none. split; intros [K N]; (split; [exact K|]); intros a Ha; apply N.
    + exact (Permutation_in a (Permutation_sym P) Ha).
    + exact (Permutation_in a P Ha).
Qed.
Print Assumptions C16_order_independent.

(* a later pass in which every alias was already handled changes nothing *)
Theorem C16_repeat_pass_identity (c : var) (als : list alias) :
  forallb skipped als = true -> merge c als = c.
Proof. exact (merge_all_skipped c als). Qed.
Print Assumptions C16_repeat_pass_identity.

(* non-vacuity (test/models/NegativeAlias.mo plus a positive alias that supplies the start):
   x(min=0,max=3,nominal=10), alias = -x with (min=-2,max=-1,nominal=1,fixed), b = x with start 4
   gives x in [1,2], nominal 10, fixed, start 4; and -3/2 is NOT in the merged interval although it
   lies in the negative alias' own interval *)
Example C16_example :
  let q (n : Z) (d : positive) := Q2Qc (n # d) in
  let x := Var (Fin (q 0%Z 1%positive)) (Fin (q 3%Z 1%positive)) (q 10%Z 1%positive) false None in
  let a := Alias true false false (Var (Fin (q (-2)%Z 1%positive)) (Fin (q (-1)%Z 1%positive)) (q 1%Z 1%positive) true None) in
  let b := Alias false false false (Var NegInf PosInf (q 0%Z 1%positive) false (Some (q 4%Z 1%positive))) in
  var_eqb (merge x [a; b]) (Var (Fin (q 1%Z 1%positive)) (Fin (q 2%Z 1%positive)) (q 10%Z 1%positive) true (Some (q 4%Z 1%positive))) = true /\
  inb (q 3%Z 2%positive) (merge x [a; b]) = true /\ inb (q (-3)%Z 2%positive) (merge x [a; b]) = false /\
  inb (q (-3)%Z 2%positive) (avar a) = true.
Proof. vm_compute. repeat split. Qed.
Print Assumptions C16_example.
