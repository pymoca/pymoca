(* C21 — an interrupted or in-progress cache write never breaks later loads.
   Property theorems only; proofs live in Lib/Prefix.v and Proofs/C21_*.v.
   `t` is the exception-routing table extracted from api.py on every run; the side condition
   `routes_ok t = true` is discharged by vm_compute (run/C21/Gen_C21.v, Tie_C21.v, generated per run). *)
From Coq Require Import List Arith Bool.
From PV Require Import Lib.Prefix Model.C21_crash Proofs.C21_crash.
Import ListNotations.

(* the mini pickle format is written by an encoder whose output the online decoder accepts with
   nothing left over — for every value, of any size and nesting *)
Theorem C21_dump_accepted (v : pv) : accepted step init (dump v) v.
Proof. exact (dump_accepted v). Qed.
Print Assumptions C21_dump_accepted.

(* hence every proper prefix of a written cache file ends the decoder in EOF: never a value,
   never a format error *)
Theorem C21_prefix_eof (v : pv) (pre suf : list byte) :
  dump v = pre ++ suf -> suf <> [] -> decode pre = EOF.
Proof. exact (dump_prefix_eof v pre suf). Qed.
Print Assumptions C21_prefix_eof.

(* C21 over arbitrary histories: starting from an empty folder, for every sequence of source edits,
   version changes, transfers (any options), transfers killed after any number of write steps
   (0 = before open, 1 = file created/truncated, 1+k = k bytes written), cache files cut at any
   byte offset, and reader-during-write interleavings: every transfer that returns, returns the
   model of the current sources for the requested options (loaded or recompiled); none raises. *)
Theorem C21_crash (t : tables) (h : list op) :
  routes_ok t = true -> all_good t w0 h.
Proof. intros Hr. exact (all_good_from t h Hr w0 Inv_w0). Qed.
Print Assumptions C21_crash.

(* explicit crash-point form: in any reachable state, a transfer killed after ANY j write steps,
   followed by any transfer: correct model, no exception *)
Theorem C21_crash_point (t : tables) (h : list op) (ow : nat) (e : bool) (j : nat) (o : nat) (e' : bool) :
  routes_ok t = true ->
  let w := world_after t w0 h in
  let w' := fst (transfer_cut t w ow e j) in
  good w o (snd (transfer t w' o e')).
Proof. exact (crash_point t h ow e j o e'). Qed.
Print Assumptions C21_crash_point.

(* reader/writer interleaving, same options: the reader runs when the writer has done any j of its
   write steps; both return the correct model.
   _partial: same options, saves in whole write steps.  Two option sets: C21_two_callers_partial; byte
   level and torn files: C21_two_writers_single_write ff.; codegen mode: C21_crash_codegen.
   mtime_check=False is not in the model. *)
Theorem C21_reader_partial (t : tables) (h : list op) (o : nat) (e e' : bool) (j : nat) :
  routes_ok t = true ->
  let w := world_after t w0 h in
  Forall (good w o) (snd (step_op t w (Reader o e e' j))).
Proof. exact (reached_step_good t h (Reader o e e' j)). Qed.
Print Assumptions C21_reader_partial.

(* two callers on one folder that BOTH finish load_model on the same reachable state (e.g. the same
   unfinished cache file) before either runs its handler / compile / save, the later steps interleaved
   in any order of whole steps (lastb = whose save comes last), any two option sets: both return the
   correct model.  _partial: byte-level interleaving of the two saves is not modelled. *)
Theorem C21_two_callers_partial (t : tables) (h : list op) (oa ob : nat) (ea eb lastb : bool) :
  routes_ok t = true ->
  let w := world_after t w0 h in
  exists ra rb, snd (step_op t w (Two oa ob ea eb lastb)) = [ra; rb] /\ good w oa ra /\ good w ob rb.
Proof. intros Hr w. exact (two_good t w oa ob ea eb lastb Hr (Inv_reached t h Hr)). Qed.
Print Assumptions C21_two_callers_partial.

(* a writer at any write step j and two such readers (same options) *)
Theorem C21_writer_two_readers_partial (t : tables) (h : list op) (o : nat) (e ea eb : bool) (j : nat) :
  routes_ok t = true ->
  let w := world_after t w0 h in
  Forall (good w o) (snd (step_op t w (Reader2 o e ea eb j))).
Proof. exact (reached_step_good t h (Reader2 o e ea eb j)). Qed.
Print Assumptions C21_writer_two_readers_partial.

(* the repaired code's table satisfies the side condition ... *)
Example C21_fixed_routes : routes_ok tbl_fixed = true.
Proof. vm_compute. reflexivity. Qed.
Print Assumptions C21_fixed_routes.

(* ... non-vacuity: a concrete history with a crash after 5 write steps, an edit, a cut at offset 0
   and a reader at step 4; the outcomes are the expected ones *)
Example C21_history_example :
  map (map obs_of)
      (run_ops tbl_fixed w0 [Transfer 1 true; CrashT 2 true 5; Transfer 2 false; Transfer 2 true; Edit;
                             Transfer 2 true; Cut 0; Transfer 2 true; Reader 3 true false 4; Transfer 3 true])
  = [[ORecompiled]; [ODied]; [ORecompiled]; [OLoaded]; []; [ORecompiled]; []; [ORecompiled];
     [ORecompiled; ORecompiled]; [OLoaded]].
Proof. vm_compute. reflexivity. Qed.
Print Assumptions C21_history_example.

(* the side condition is necessary: with the routing table of the code before commit cb129b2 the
   transfer after a crash raises *)
Theorem C21_unrouted_refuted :
  routes_ok tbl_prefix = false /\
  exists h, In [Raised UnpicklingError] (run_ops tbl_prefix w0 h).
Proof.
  split; [vm_compute; reflexivity|].
  exists [Transfer 1 true; CrashT 2 true 5; Transfer 2 false]. vm_compute. auto.
Qed.
Print Assumptions C21_unrouted_refuted.

From PV Require Import Proofs.C21_overlay Proofs.C21_codegen.

(* Two saves into one file at byte level (Model Part 3: open "wb" truncates, own offsets, zero-filled
   gaps), ANY two option sets, ANY interleaving of opens and writes, also cut short anywhere (crash),
   and a caller with ANY options that loads at ANY point: it gets the model of the current sources for
   its own options or it recompiles; it never accepts a mixture.
   ASSUMPTION (whole): every write call delivers the writer's whole stream — true of pickle.dump into
   a buffered file while the pickle fits one frame (< 64 KiB); checked on the real code by tie W. *)
Theorem C21_two_writers_single_write (t : tables) (h : list op) (oa ob : nat) (evs : list ev)
        (o : nat) (e : bool) (bx : exc) :
  routes_ok t = true ->
  let w := world_after t w0 h in
  forallb (whole (stream w oa) (stream w ob)) evs = true ->
  match load_gen t (ov_world w oa ob evs) o e bx with
  | inr m => m = (src w, o)
  | inl x => transfer_recompiles t x = true
  end.
Proof.
  intros Hr w Hw. exact (single_chunk_reader t w oa ob evs o e bx Hr (Inv_reached t h Hr) Hw).
Qed.
Print Assumptions C21_two_writers_single_write.

(* several write calls per save, SAME stream: the later opener has written p bytes, the earlier writer
   continues beyond the gap.  If p is a position where the decoder expects an opcode (write calls end at
   frame boundaries), the zero byte there is a format error whatever follows: the reader recompiles. *)
Theorem C21_hole_at_opcode_boundary (s : list byte) (p : nat) (rest : list byte) :
  boundary s p = true -> decode (firstn p s ++ 0 :: rest) = Bad.
Proof. exact (hole_is_bad s p rest). Qed.
Print Assumptions C21_hole_at_opcode_boundary.

(* _partial: one shape of file only.  That every intermediate file of a chunked same-stream interleaving
   is a prefix of the stream or has this shape: C21_chunked_file_shape, C21_two_writers_chunked_same_stream
   (any schedule after the later open), C21_phase3_shape_sweep (three-phase schedules). *)
Theorem C21_torn_same_stream_partial (t : tables) (h : list op) (o' p : nat) (rest : list byte) (o : nat) (e : bool) :
  routes_ok t = true ->
  let w := world_after t w0 h in
  boundary (stream w o') p = true ->
  match load_gen t (set_cfile w (Some (firstn p (stream w o') ++ 0 :: rest, clock w))) o e UnpicklingError with
  | inr m => m = (src w, o)
  | inl x => transfer_recompiles t x = true
  end.
Proof. intros Hr w Hb. exact (hole_reader t w o' p rest o e Hr Hb). Qed.
Print Assumptions C21_torn_same_stream_partial.

(* all 29^3 three-phase schedules within ONE stream of 28 bytes: the file that write_at leaves after
   [OpenA; WriteA a0; OpenB; WriteB b; WriteA (a-a0)] is mask: a prefix, or prefix ++ zeros ++ later chunk.
   A finite sweep as stated; an instance of phase3_mask, which holds for every stream. *)
Example C21_phase3_shape_sweep :
  let s := dump (db_of 3 5 7) in
  forallb (fun a0 => forallb (fun b => forallb (fun a =>
    match ofile (ov_run s s (ov0 None) (phase3 a0 b a)) with
    | Some f => if list_eq_dec Nat.eq_dec f (mask s a0 b (Nat.max a a0)) then true else false
    | None => false end) (seq 0 29)) (seq 0 29)) (seq 0 29) = true.
Proof. intros s. apply (phase3_shape s 28). vm_compute. reflexivity. Qed.
Print Assumptions C21_phase3_shape_sweep.

(* without the alignment assumption the statement is false even for the SAME stream: the gap covers a
   payload byte, the file decodes, and a stale model id is served *)
Theorem C21_torn_unaligned_refuted :
  let w := W 5 0 0 0 None in
  load_gen tbl_fixed (ov_world w 1 1 [OpenA; WriteA 23; OpenB; WriteB 22; WriteA 5]) 1 true UnpicklingError = inr (0, 1).
Proof. vm_compute. reflexivity. Qed.
Print Assumptions C21_torn_unaligned_refuted.

(* and for two DIFFERENT option sets with several write calls a mixture is accepted: header (options 2)
   from one stream, functions (options 1) from the other; the caller asking for options 2 gets model 1 *)
Theorem C21_mixture_refuted :
  let w := W 5 0 0 0 None in
  load_gen tbl_fixed (ov_world w 1 2 [OpenA; WriteA 20; OpenB; WriteB 20; WriteA 8]) 2 true UnpicklingError = inr (5, 1).
Proof. vm_compute. reflexivity. Qed.
Print Assumptions C21_mixture_refuted.

(* codegen mode (Model Part 4), step order since ee3ded2 = remove cache file; four libraries;
   create/truncate; bytes: for every history of edits, version changes, transfers and transfers killed
   after ANY number of these steps, every transfer that returns yields four libraries that are all
   compiled from the current sources for the requested options, or recompiles; none raises.
   The side condition "remove first" is extracted from save_model on every run (tie). *)
Theorem C21_crash_codegen (t : tables) (h : list cop) :
  routes_ok t = true -> cg_all_good t cw0 h.
Proof. intros Hr. exact (cg_all_good_from t h Hr cw0 CInv_cw0). Qed.
Print Assumptions C21_crash_codegen.

(* the order before ee3ded2 (libraries first, cache file untouched until the end) is refuted: a write for
   options 2 killed after the four libraries leaves the complete cache file of options 1 next to them *)
Theorem C21_codegen_old_order_refuted :
  exists h, In [CLoaded (all4 (0, 2))] (cg_run false tbl_fixed cw0 h) /\
            last h CEdit = CTransfer 1 true.
Proof. exists [CTransfer 1 true; CCrashT 2 true 4; CTransfer 1 true]. vm_compute. auto. Qed.
Print Assumptions C21_codegen_old_order_refuted.

(* a caller overlapping a codegen writer that has removed the cache file (first step of its save) and is
   killed while building libraries: wherever the removal falls relative to the caller's load_model — before
   it, in the gap between its existence/mtime test and its open, or after it — the caller returns the correct
   model.  (The gap is not a separate state of the model: the test and the open raise the same
   FileNotFoundError class, which is what the routing table must send to recompilation; the real schedules
   with the removal inside the gap are exercised by the harness op `gap`.) *)
Theorem C21_reader_vs_removal (t : tables) (h : list op) (o : nat) (e late sf : bool) :
  routes_ok t = true ->
  let w := world_after t w0 h in
  Forall (good w o) (snd (step_op t w (Gap o e late sf))).
Proof. exact (reached_step_good t h (Gap o e late sf)). Qed.
Print Assumptions C21_reader_vs_removal.

(* WHAT THE FILE CAN CONTAIN (same stream s, cache mode).  B is the later opener: its "wb" open has just
   truncated the file while A stood at offset a0 (after_open a0).  After ANY interleaving of write calls
   of ANY sizes by the two writers (evs arbitrary, so also cut anywhere by a kill), the file is exactly:
   byte p of s at every position written since — B's prefix [0, offB) and A's stretch [a0, offA) — and zero
   everywhere else below its length max(offB, offA): a prefix of s, or prefix ++ zero gap ++ later stretch. *)
Theorem C21_chunked_file_shape (s : list byte) (a0 : nat) (evs : list ev) :
  a0 <= length s -> forallb is_write evs = true ->
  shapeS s a0 (ov_run s s (after_open a0) evs).
Proof. intros Ha Hw. exact (shapeS_run s a0 evs _ Hw (shapeS_after_open s a0 Ha)). Qed.
Print Assumptions C21_chunked_file_shape.

(* WHICH OF THOSE A READER ACCEPTS, and the property's clause: same options (same stream), k >= 1 write calls
   each, any interleaving, with or without a kill, a later caller with ANY options: it gets the model of the
   current sources for its own options (only from the complete stream) or it recompiles; it never raises.
   ASSUMPTION: at the moment of the load the later opener's offset is a position where the decoder expects an
   opcode (its write calls end at opcode/frame boundaries); without it: C21_torn_unaligned_refuted.
   Two DIFFERENT option sets with several write calls: refuted in the model, C21_mixture_refuted. *)
Theorem C21_two_writers_chunked_same_stream (t : tables) (h : list op) (o' a0 : nat) (evs : list ev) (o : nat) (e : bool) :
  routes_ok t = true ->
  let w := world_after t w0 h in
  a0 <= length (stream w o') -> forallb is_write evs = true ->
  let x := ov_run (stream w o') (stream w o') (after_open a0) evs in
  boundary (stream w o') (offB x) = true ->
  match load_gen t (set_cfile w (option_map (fun f => (f, clock w)) (ofile x))) o e UnpicklingError with
  | inr m => m = (src w, o)
  | inl y => transfer_recompiles t y = true
  end.
Proof. intros Hr w Ha Hw x Hb. exact (chunked_same_stream_reader t w o' a0 evs o e Hr Ha Hw (fun _ => Hb)). Qed.
Print Assumptions C21_two_writers_chunked_same_stream.
