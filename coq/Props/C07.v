(* C07 — hierarchical flattening instantiates every component once.
   Property theorems only; proofs in Proofs/C07_*.v; model in Lib/ClassTree.v + Model/C07_flatten.v.
   The model mirrors pymoca.tree.flatten (defects included) and is compared with the real code on every
   run.  What is proved here are the four local rules the property names, for arbitrary inputs, and the global
   refinement `flatten = inst` for three kinds of libraries without modifications (plain: C07_refines_flat;
   all classes at the top level: C07_refines_extends, C07_refines_extends_toplevel; packages:
   C07_refines_extends_packages).  In general it is NOT proved (C07_refines_partial says what is missing) and it
   is false under shadowing (C07_refuted_shadowing). *)
From Coq Require Import List ZArith Bool PArith.
From PV Require Import Lib.ClassTree Lib.Inst Model.C07_flatten Proofs.C07_flatten Proofs.C07_refine Proofs.C07_refine_ext Proofs.C07_lex Proofs.C07_refine_pkg.
Import ListNotations.

(* C07a: a flat name is the instance path: composition prefix ++ [name] is injective, and the
   dictionary test `new_name in container.symbols` (string equality of dotted names) is exact *)
Theorem C07a_names :
  (forall (p p' : path) (n n' : ident), p ++ [n] = p' ++ [n'] -> p = p' /\ n = n') /\
  (forall a b : path, path_eqb a b = true <-> a = b) /\
  (forall (x : path) (l : list path), mem_path x l = true <-> In x l).
Proof. exact (conj (@app_inj_tail ident) (conj path_eqb_spec mem_path_spec)). Qed.
Print Assumptions C07a_names.

(* C07b: prefix rule of flatten_symbols (tree.py:585-592): top-level components keep every prefix;
   below the top level input and output are gone (for a duplicate-free prefix list) and every other
   prefix (parameter, constant, discrete, flow, ...) is kept *)
Theorem C07b_prefixes :
  (forall pre, strip_io [] pre = pre) /\
  (forall n prefix pre, NoDup pre ->
     ~ In pInput (strip_io (n :: prefix) pre) /\ ~ In pOutput (strip_io (n :: prefix) pre)) /\
  (forall prefix pre x, x <> pInput -> x <> pOutput -> (In x (strip_io prefix pre) <-> In x pre)).
Proof. exact (conj (fun pre => eq_refl) (conj strip_io_nested strip_io_keeps)). Qed.
Print Assumptions C07b_prefixes.

(* C07c: extends merge (tree.py:294, 316 — OrderedDict.update): merging the symbols `new` of a base or
   of the class itself into a duplicate-free dictionary keeps it duplicate free (every inherited
   component is instantiated exactly once, also when two sources bring the same name), keeps the
   earlier symbols first in their order, and contains exactly the names of both *)
Theorem C07c_extends_merge (l new : list sym) :
  NoDup (map s_name l) ->
  NoDup (map s_name (od_update s_name Pos.eqb l new)) /\
  (exists t, map s_name (od_update s_name Pos.eqb l new) = map s_name l ++ t) /\
  (forall n, In n (map s_name (od_update s_name Pos.eqb l new)) <-> In n (map s_name l) \/ In n (map s_name new)).
Proof. exact (update_props s_name new l). Qed.
Print Assumptions C07c_extends_merge.

(* C07d: reference renaming (ComponentRefFlattener, tree.py:736-765): a reference is replaced by the
   composed flat name iff that name is a symbol of the container, else left alone; this holds for every
   reference inside every expression *)
Theorem C07d_rename (cont : list path) (prefix : path) :
  (forall p idx, (In (prefix ++ p) cont -> rename cont prefix (ERef p idx) = ERef (prefix ++ p) idx) /\
                 (~ In (prefix ++ p) cont -> rename cont prefix (ERef p idx) = ERef p idx)) /\
  (forall e, refs_ok cont prefix e (rename cont prefix e)).
Proof. exact (conj (rename_ref_iff cont prefix) (rename_ok cont prefix)). Qed.
Print Assumptions C07d_rename.

(* REFINEMENT, stage 1.  Lib/Inst.v `inst` is the specification written from the property text (one
   variable per leaf named by its instance path, types looked up in the declaring class, prefix rule,
   equations of every instance with references renamed to the leaf they denote, outermost modifier wins).
   For every PLAIN library — no extends clauses, no modifications; any nesting depth, repeated classes,
   nested class definitions (looked up through enclosing scopes), type aliases `type T = Real;` of the
   built-in types (anywhere in the class tree; the flattened class itself is not an alias), scalar arrays,
   all prefixes (each prefix list duplicate free), symbol names duplicate free — whenever the model of pymoca's flatten returns a flat class, the specification
   returns the SAME ordered variables and the SAME list of equations (hence the same multiset).  `clean`:
   no attribute and no pending modification on any flat symbol, so `var_of` forgets nothing. *)
Theorem C07_refines_flat (root : list cdef) (top : path) (r : list fsym * list eqn) :
  plain_lib root ->
  ~ (exists c lex Sp b, lookup (lex_scope root []) top = Some (c, lex, Sp, b) /\ alias c) ->
  flatten root false top = Ok r ->
  Forall clean (fst r) /\ PV.Lib.Inst.inst root top = Some (map var_of (fst r), snd r).
Proof. exact (refines_flat root top r). Qed.
Print Assumptions C07_refines_flat.

(* `flatten root false` is the model WITHOUT pymoca's definition-order rule (every nested class counts as
   instantiated before its users); the real code is `flatten root true` (Model/C07_flatten.v, ilookup).  For
   the real model the theorem holds under the hypothesis that carves out the recorded finding
   nested-class-defined-after-user-resolved-lexically: the order rule does not change the result. *)
Theorem C07_refines_flat_real (root : list cdef) (top : path) (r : list fsym * list eqn) :
  plain_lib root ->
  ~ (exists c lex Sp b, lookup (lex_scope root []) top = Some (c, lex, Sp, b) /\ alias c) ->
  flatten root true top = flatten root false top ->
  flatten root true top = Ok r ->
  Forall clean (fst r) /\ PV.Lib.Inst.inst root top = Some (map var_of (fst r), snd r).
Proof. intros Hp Ht E H. rewrite E in H. exact (refines_flat root top r Hp Ht H). Qed.
Print Assumptions C07_refines_flat_real.

(* the recorded finding: model Part Real pr; end Part;  model Base model Part Real pb; end Part; end Base;
   model M  model Inner Helper h; end Inner;  model Helper Part p; end Helper;  extends Base;  Inner i1; end M;
   Helper is defined AFTER its user Inner, so it is instantiated in its lexical scope and `Part` is the
   root-level class (variable i1.h.p.pr); the specification — and the code when Helper comes first — gives
   the inherited Base.Part (i1.h.p.pb) *)
Definition late_lib : list cdef := [(CDef 40%positive 17%positive [] [] [(mkSym 41%positive [1%positive] [] [] [])] []); (CDef 42%positive 17%positive [(CDef 40%positive 17%positive [] [] [(mkSym 43%positive [1%positive] [] [] [])] [])] [] [] []); (CDef 44%positive 17%positive [(CDef 45%positive 17%positive [] [] [(mkSym 46%positive [47%positive] [] [] [])] []); (CDef 47%positive 17%positive [] [] [(mkSym 48%positive [40%positive] [] [] [])] [])] [([42%positive], [])] [(mkSym 49%positive [45%positive] [] [] [])] [])].
Theorem C07_refuted_definition_order :
  map f_name (match flatten late_lib true [44%positive] with Ok r => fst r | Err _ => [] end) = [[49; 46; 48; 41]%positive] /\
  map f_name (match flatten late_lib false [44%positive] with Ok r => fst r | Err _ => [] end) = [[49; 46; 48; 43]%positive] /\
  option_map (fun r => map v_name (fst r)) (PV.Lib.Inst.inst late_lib [44%positive]) = Some [[49; 46; 48; 43]%positive].
Proof. vm_compute. repeat split; reflexivity. Qed.
Print Assumptions C07_refuted_definition_order.

(* the hypotheses are satisfiable by a non-trivial library: type I = Integer; model A input Real x; output Real y[2]; discrete I k; equation
   y[1] = x; end A;  model M  model N A c; end N;  A a; N b; input Real u;  equation a.x = u; b.c.x = a.y[1]; end M; *)
Definition plain_ex : list cdef :=
  [CDef 50 kType [] [([iInteger], [])] [] [];
   CDef 40 kModel [] [] [mkSym 41 [iReal] [pInput] [] []; mkSym 42 [iReal] [pOutput] [2%Z] []; mkSym 51 [50] [pDiscrete] [] []]
        [(ERef [42] [1%Z], ERef [41] [])];
   CDef 43 kModel [CDef 44 kModel [] [] [mkSym 45 [40] [] [] []] []] []
        [mkSym 46 [40] [] [] []; mkSym 47 [44] [] [] []; mkSym 48 [iReal] [pInput] [] []]
        [(ERef [46; 41] [], ERef [48] []); (ERef [47; 45; 41] [], ERef [46; 42] [1%Z])]]%positive.
Example C07_refines_flat_example :
  plain_lib plain_ex /\
  ~ (exists c lex Sp b, lookup (lex_scope plain_ex []) [43%positive] = Some (c, lex, Sp, b) /\ alias c) /\
  exists r, flatten plain_ex true [43%positive] = Ok r /\ flatten plain_ex false [43%positive] = Ok r /\
    map (fun s => (f_name s, f_type s)) (fst r) =
      [([46; 41], [iReal]); ([46; 42], [iReal]); ([46; 51], [iInteger]); ([47; 45; 41], [iReal]);
       ([47; 45; 42], [iReal]); ([47; 45; 51], [iInteger]); ([48], [iReal])]%positive /\ length (snd r) = 4%nat.
Proof.
  split; [|split].
  - repeat apply Forall_cons; try apply Forall_nil.
    1: right; constructor; [reflexivity | discriminate].
    all: left; repeat constructor; try discriminate; simpl; intuition discriminate.
  - intros (c & lex & Sp & b & L & A).
    (* only the kind of the class found is evaluated, not the scope that comes with it *)
    apply (f_equal (option_map (fun x => c_kind (fst (fst (fst x)))))) in L. vm_compute in L.
    destruct A. discriminate L.
  - eexists. split; [vm_compute; reflexivity | split; [vm_compute; reflexivity | split; reflexivity]].
Qed.
Print Assumptions C07_refines_flat_example.

(* REFINEMENT, stage 2: EXTENDS.  For every library whose classes are all defined at the top level
   (`root_lib`: no nested class definitions; extends clauses without modifiers naming classes of the
   library; no modifications; prefix lists duplicate free; type aliases `type T = Real;` allowed as leaf types) — extends chains of
   ANY depth, single and multiple inheritance, a base reached along several paths, inherited components
   of classes that themselves extend, any component nesting depth, repeated classes — whenever the model
   of pymoca's flatten returns a flat class, the specification `inst` returns the same ordered variables
   and the same equation list: every inherited component is instantiated exactly once, inherited
   equations are there with their references renamed.  (With all classes at the top level the inherited
   types cannot be shadowed, which is what the third conjunct of pkg_lib asks for.)  Such a library is a
   package library (C07_toplevel_is_package_library), so this is the special case of C07_refines_extends_packages. *)
Theorem C07_refines_extends (root : list cdef) (top : path) (r : list fsym * list eqn) :
  root_lib root ->
  ~ (exists c lex Sp b, lookup (lex_scope root []) top = Some (c, lex, Sp, b) /\ alias c) ->
  flatten root false top = Ok r ->
  Forall clean (fst r) /\ PV.Lib.Inst.inst root top = Some (map var_of (fst r), snd r).
Proof. exact (refines_extends root top r). Qed.
Print Assumptions C07_refines_extends.

Theorem C07_refines_extends_real (root : list cdef) (top : path) (r : list fsym * list eqn) :
  root_lib root ->
  ~ (exists c lex Sp b, lookup (lex_scope root []) top = Some (c, lex, Sp, b) /\ alias c) ->
  flatten root true top = flatten root false top ->
  flatten root true top = Ok r ->
  Forall clean (fst r) /\ PV.Lib.Inst.inst root top = Some (map var_of (fst r), snd r).
Proof. intros Hp Ht E H. rewrite E in H. exact (refines_extends root top r Hp Ht H). Qed.
Print Assumptions C07_refines_extends_real.

(* In a top-level library pymoca's definition-order rule cannot fire (instance frames hold no classes), so the
   model WITH the rule — the real code — and without it compute the same flat class, for every top class: *)
Theorem C07_definition_order_irrelevant_toplevel (root : list cdef) (top : path) :
  Forall eclass root -> flatten root true top = flatten root false top.
Proof. exact (fun H => flatten_late root H top). Qed.
Print Assumptions C07_definition_order_irrelevant_toplevel.

(* ... hence the extends refinement holds for the REAL model without any semantic hypothesis *)
Theorem C07_refines_extends_toplevel (root : list cdef) (top : path) (r : list fsym * list eqn) :
  root_lib root ->
  ~ (exists c lex Sp b, lookup (lex_scope root []) top = Some (c, lex, Sp, b) /\ alias c) ->
  flatten root true top = Ok r ->
  Forall clean (fst r) /\ PV.Lib.Inst.inst root top = Some (map var_of (fst r), snd r).
Proof.
  intros Hp Ht H. rewrite (flatten_late root (proj1 Hp) top) in H. exact (refines_extends root top r Hp Ht H).
Qed.
Print Assumptions C07_refines_extends_toplevel.

(* satisfiable: type T = Real; model A input Real x; parameter T k; equation x = k; end A;
   model B extends A; Real y; equation y = x; end B;  model C Real z[2]; end C;
   model M extends B; extends C; B b; output Real w; equation w = b.y; z[1] = y; end M;
   (chain M -> B -> A, multiple extends, a component of a class that extends): 8 variables, 6 equations,
   and the real model (definition-order rule on) gives the same *)
Definition ext_ex : list cdef :=
  [CDef 50 kType [] [([iReal], [])] [] [];
   CDef 40 kModel [] [] [mkSym 41 [iReal] [pInput] [] []; mkSym 42 [50] [pParam] [] []] [(ERef [41] [], ERef [42] [])];
   CDef 43 kModel [] [([40], [])] [mkSym 44 [iReal] [] [] []] [(ERef [44] [], ERef [41] [])];
   CDef 45 kModel [] [] [mkSym 46 [iReal] [] [2%Z] []] [];
   CDef 47 kModel [] [([43], []); ([45], [])] [mkSym 48 [43] [] [] []; mkSym 49 [iReal] [pOutput] [] []]
        [(ERef [49] [], ERef [48; 44] []); (ERef [46] [1%Z], ERef [44] [])]]%positive.
Example C07_refines_extends_example :
  root_lib ext_ex /\
  ~ (exists c lex Sp b, lookup (lex_scope ext_ex []) [47%positive] = Some (c, lex, Sp, b) /\ alias c) /\
  flatten ext_ex true [47%positive] = flatten ext_ex false [47%positive] /\
  exists r, flatten ext_ex false [47%positive] = Ok r /\
    map f_name (fst r) = [[41]; [42]; [44]; [46]; [48; 41]; [48; 42]; [48; 44]; [49]]%positive /\
    length (snd r) = 6%nat.
Proof.
  assert (Forall eclass ext_ex) as He.
  { repeat apply Forall_cons; try apply Forall_nil.
    1: right; constructor; [reflexivity | discriminate].
    all: left; repeat constructor; try discriminate; intros []. }
  split; [|split; [|split]].
  - apply (root_lib_intro ext_ex He). vm_compute. reflexivity.
  - intros (c & lex & Sp & b & L & A).
    apply (f_equal (option_map (fun x => c_kind (fst (fst (fst x)))))) in L. vm_compute in L.
    destruct A. discriminate L.
  - exact (flatten_late ext_ex He [47%positive]).
  - eexists. split; [vm_compute; reflexivity | split; reflexivity].
Qed.
Print Assumptions C07_refines_extends_example.

(* lex_consistent.  `located root d dl`: the class d stands in the class list reached from the root by the dotted
   path dl; here d only serves to say that dl is such a path, and `lex_scope root dl` is the scope of the classes
   AT dl, that is of d's lexical parent (d's own scope is lex_scope root (dl ++ [c_name d])).  In that scope a class
   found by pymoca's lookup — simple or dotted name, found in any enclosing frame — is itself located, comes with
   EXACTLY the lexical scope of its own lexical parent as .parent chain, and was not found in an instance
   dictionary.  (This is what makes find_base, which resolves from the root, and the specification, which resolves
   from the scope the class was found in, agree.) *)
Theorem C07_lex_consistent (root : list cdef) (d : cdef) (dl ref : path) (c : cdef) (clex : path) (S' : scope) (b : bool) :
  located root d dl -> lookup (lex_scope root dl) ref = Some (c, clex, S', b) ->
  located root c clex /\ S' = lex_scope root clex /\ b = false.
Proof. exact (lookup_located root d dl ref c clex S' b). Qed.
Print Assumptions C07_lex_consistent.

(* REFINEMENT, stage 2b: extends in libraries structured by PACKAGES.  Classes at any package depth; extends
   clauses and component types name classes of other packages by simple name (found in an enclosing scope)
   or dotted name; extends chains of any depth, multiple inheritance.  The theorem speaks of `flatten root false`,
   the model WITHOUT the definition-order rule; unlike stages 1 and 2 it has no form for the real model.  Side
   conditions (`pkg_lib`; in them `lex_scope root dlex` is the scope in which the names written in a model d located
   at dlex are looked up, because such a model has no classes of its own).  They keep out the recorded findings,
   and more than those (every model with a nested class, which stage 1 allows):
     - models have no nested class definitions (`eplain`): keeps out nested-class-defined-after-user...;
     - no shadowing (third conjunct of pkg_lib): the type name of every component means the same class in the scope
       of every class that inherits it (`reach`): keeps out inherited-type-resolved-in-deriving-scope;
     - extends clauses name models, component types name models or aliases (not packages), no clause
       modifiers, no modifications (so no attribute expression exists, and modified-alias-component-of-nested-class...
       and flattened-reference-prefixed-twice cannot occur). *)
Theorem C07_refines_extends_packages (root : list cdef) (top : path) (r : list fsym * list eqn) :
  pkg_lib root ->
  (forall c lex Sp b, lookup (lex_scope root []) top = Some (c, lex, Sp, b) -> eplain c) ->
  flatten root false top = Ok r ->
  Forall clean (fst r) /\ PV.Lib.Inst.inst root top = Some (map var_of (fst r), snd r).
Proof. exact (refines_extends_pkg root top r). Qed.
Print Assumptions C07_refines_extends_packages.

(* the side conditions are satisfiable (every top-level library of stage 2 satisfies them, e.g. ext_ex above) *)
Theorem C07_toplevel_is_package_library (root : list cdef) : root_lib root -> pkg_lib root.
Proof. exact (root_lib_is_pkg_lib root). Qed.
Print Assumptions C07_toplevel_is_package_library.

(* the conclusion holds, by evaluation, in a genuine package library (that pkg_ex satisfies pkg_lib is not shown):
   package P  model A Real x; equation x = 1; end A;  model B extends A; Real y; equation y = x; end B;  end P;
   package Q  model C extends P.B; P.A a; end C;  end Q;   model M extends Q.C; Q.C c; end M; *)
Definition pkg_ex : list cdef :=
  [CDef 60 kPackage
     [CDef 40 kModel [] [] [mkSym 41 [iReal] [] [] []] [(ERef [41] [], ENum 1)];
      CDef 43 kModel [] [([40], [])] [mkSym 44 [iReal] [] [] []] [(ERef [44] [], ERef [41] [])]] [] [] [];
   CDef 61 kPackage
     [CDef 45 kModel [] [([60; 43], [])] [mkSym 46 [60; 40] [] [] []] []] [] [] [];
   CDef 47 kModel [] [([61; 45], [])] [mkSym 48 [61; 45] [] [] []] []]%positive.
Example C07_refines_packages_example :
  exists r, flatten pkg_ex false [47%positive] = Ok r /\
    map f_name (fst r) = [[41]; [44]; [46; 41]; [48; 41]; [48; 44]; [48; 46; 41]]%positive /\
    PV.Lib.Inst.inst pkg_ex [47%positive] = Some (map var_of (fst r), snd r) /\
    flatten pkg_ex true [47%positive] = Ok r.
Proof. eexists. split; [vm_compute; reflexivity | split; [reflexivity | split; vm_compute; reflexivity]]. Qed.
Print Assumptions C07_refines_packages_example.

(* flatten_extends_elems (on its own; the refinement theorems do not go through it): one extends level — any number of extends
   clauses, each resolving (find_base, tree.py:277) to an extends-free class that is not the class itself,
   without clause modifiers.  flatten_extends returns the fold of merge_base over the bases in clause order
   (nested classes and symbols by OrderedDict.update, equations appended), then the class's own elements
   and the incoming environment: every inherited component is there exactly once (C07c), in this order. *)
Theorem C07_flatten_extends_elems (root : list cdef) (f : nat) (c : cdef) (lex : path) (menv : list marg)
        (bases : list (cdef * path)) :
  Forall2 (simple_base root c lex) (c_exts c) bases -> c_kind c <> kBuiltin ->
  flatten_extends root (S (S f)) c lex menv =
  let x := fold_left merge_base bases (mkExt (c_kind c) [] [] [] []) in
  Ok (mkExt (c_kind c)
        (od_update e_key Pos.eqb (x_classes x) (entries_of (lex ++ [c_name c]) (c_classes c)))
        (od_update s_name Pos.eqb (x_syms x) (c_syms c))
        (x_eqs x ++ c_eqs c) (x_menv x ++ menv)).
Proof. exact (flatten_extends_elems root f c lex menv bases). Qed.
Print Assumptions C07_flatten_extends_elems.

(* PARTIAL.  Proved here: the extends-free step of flatten_extends (the case `bases = []` of
   C07_flatten_extends_elems).  Proved above, for libraries without modifications: C07_refines_flat (nested class
   definitions, no extends), C07_refines_extends (extends, all classes at the top level),
   C07_refines_extends_packages (extends in package libraries, with C07_lex_consistent and the no-shadowing side
   condition).  NOT proved: (i) extends in models that HAVE nested class definitions — there the instance
   dictionary holds the inherited classes (x_classes would have to be the specification's all_classes) and the
   definition-order rule applies; (ii) extends clauses with modifiers, and modifications in general: Props/C08.v says
   at its head what is proved of them and what is missing; (iii) alias of alias and aliases with modifiers in the
   type definition.  For all of these the comparisons are made on every run instead (check_case, check_spec). *)
Theorem C07_refines_partial (root : list cdef) (f : nat) (c : cdef) (lex : path) (menv : list marg) :
  c_exts c = [] -> c_kind c <> kBuiltin ->
  flatten_extends root (S f) c lex menv =
  Ok (mkExt (c_kind c)
        (od_update e_key Pos.eqb [] (entries_of (lex ++ [c_name c]) (c_classes c)))
        (od_update s_name Pos.eqb [] (c_syms c)) (c_eqs c) menv).
Proof. exact (flatten_extends_no_extends root f c lex menv). Qed.
Print Assumptions C07_refines_partial.

(* the recorded defect: package P { type T = Real(min=0); model B T t; end B; }  type T = Integer(max=7);
   model M extends P.B; end M;  — the class that declares `t` sees P.T (an alias of Real), but the flat
   model types t as Integer with max = 7 because the type is looked up from the deriving class M *)
Definition shadow_lib : list cdef :=
  [CDef 40 kPackage
     [CDef 41 kType [] [([iReal], [MArg None [aMin] [MExpr (ENum 0)]])] [] [];
      CDef 42 kModel [] [] [mkSym 43 [41] [] [] []] []] [] [] [];
   CDef 41 kType [] [([iInteger], [MArg None [aMax] [MExpr (ENum 7)]])] [] [];
   CDef 44 kModel [] [([40; 42], [])] [] []]%positive.
Theorem C07_refuted_shadowing :
  exists (lib : list cdef) (top : path),
    (* the declared type T of t, looked up in the scope of the declaring class P.B, extends Real *)
    match lookup (lex_scope lib [40; 42]%positive) [41%positive] with
    | Some (c, lex, _, _) => map fst (c_exts c) = [[iReal]] /\ lex = [40%positive]
    | None => False
    end /\
    (* but the flat model says Integer, max = 7 *)
    model_outcome lib top = OFlat [([43%positive], [iInteger], [], [], [(aMax, ENum 7)], 0%nat)] [].
Proof.
  exists shadow_lib, [44%positive]. split; vm_compute; [split; reflexivity | reflexivity].
Qed.
Print Assumptions C07_refuted_shadowing.

(* non-trivial instance: model A input Real x; output Real y; parameter Real k = 2; equation y = k*x; end A;
   model M A a1; A a2; input Real u; output Real o; equation a1.x = u; a2.x = a1.y; o = a2.y; end M; *)
Definition io_lib : list cdef := [(CDef 43%positive 17%positive [] [] [(mkSym 42%positive [1%positive] [19%positive] [] []); (mkSym 40%positive [1%positive] [20%positive] [] []); (mkSym 41%positive [1%positive] [21%positive] [] [(MArg None [5%positive] [MExpr (ENum (2)%Z)])])] [((ERef [40%positive] []), (EOp 32%positive [(ERef [41%positive] []); (ERef [42%positive] [])]))]); (CDef 48%positive 17%positive [] [] [(mkSym 44%positive [43%positive] [] [] []); (mkSym 46%positive [43%positive] [] [] []); (mkSym 45%positive [1%positive] [19%positive] [] []); (mkSym 47%positive [1%positive] [20%positive] [] [])] [((ERef [44%positive; 42%positive] []), (ERef [45%positive] [])); ((ERef [46%positive; 42%positive] []), (ERef [44%positive; 40%positive] [])); ((ERef [47%positive] []), (ERef [46%positive; 40%positive] []))])].
Example C07_example :
  match model_outcome io_lib [48%positive] with
  | OFlat syms eqs =>
      map (fun s => match s with (n, _, pre, _, _, _) => (n, pre) end) syms =
        [([44; 42], []); ([44; 40], []); ([44; 41], [pParam]);
         ([46; 42], []); ([46; 40], []); ([46; 41], [pParam]);
         ([45], [pInput]); ([47], [pOutput])]%positive
      /\ length eqs = 5%nat
  | OErr _ => False
  end.
Proof. vm_compute. split; reflexivity. Qed.
Print Assumptions C07_example.
