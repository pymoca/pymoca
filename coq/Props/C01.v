(* C01 — parse cache is transparent over any cache history.
   The property theorems; the model is Model/C01_cache.v, the lemmas behind them are in Proofs/C01_cache.v;
   the concrete histories are evaluated here.

   Reading guide.  [sy t] = "text t has no syntax error" (what _parse decides); [caught e] = the except
   clause around pickle.loads catches exception class e; the boolean after it = parse() falls back to a
   fresh parse when the cache lookup raises sqlite3.DatabaseError in a process that has already checked
   the database.  Both are re-derived from /repo on every run (run/C01/Gen.v, Tie_C01.v).
   [transparent sy caught flag s h]: started in state s, every [Parse t] of history h returns
   [if sy t then OTree t else ONoTree] — never another tree, never an exception.
   [Inv sy s]: every row of the database of s sits under the key of a text that parses and holds that
   text's own tree or something that does not unpickle.  [legal h]: the history uses only the faults
   the property lists (no valid pickle of a different object planted in a row). *)
From Coq Require Import List Bool ZArith.
Import ListNotations.
Open Scope Z_scope.
From PV Require Import Model.C01_cache Proofs.C01_cache.

(* Full statement, for a source whose unpickle handler catches every exception class and which handles
   DatabaseError after initialisation: ANY start state with sound rows (any prior cache folder, any
   process state, any clock, any version), ANY legal history of any length. *)
Theorem C01_transparent (sy : nat -> bool) (caught : exn -> bool) (s : state) (h : list op) :
  (forall e, caught e = true) -> legal h = true -> Inv sy s -> transparent sy caught true s h.
Proof. intros Hc. exact (transparent_fixed sy caught true Hc eq_refl s h). Qed.
Print Assumptions C01_transparent.

(* A failed parse is never stored and what is stored is the text's own tree (or does not unpickle): in
   every state reached by a prefix of a legal history — whatever is caught, whatever the flag. *)
Theorem C01_rows_sound (sy : nat -> bool) (caught : exn -> bool) (flag : bool) (s : state) (h1 h2 : list op) :
  legal (h1 ++ h2) = true -> Inv sy s -> Inv sy (exec sy caught flag s h1).
Proof.
  intros Hl. apply exec_inv. unfold legal in Hl. rewrite forallb_app in Hl.
  apply andb_true_iff in Hl. apply Hl.
Qed.
Print Assumptions C01_rows_sound.

(* A source without the DatabaseError fall-back (flag = false: /repo before a7369f2; the theorem holds
   for any flag): transparent from a freshly started process PROVIDED every fault that breaks the models table or
   the file and hits an already initialised process is followed by a Reload before the next caching
   parse, and no unrepairable fault occurs (path replaced by a directory, a VIEW named models: [benign],
   [persistent]).  Partial: the hypotheses carve out exactly the input class of the finding
   db-fault-after-init-same-process (from a7369f2 on the full theorem above applies and covers these faults too). *)
Theorem C01_transparent_reload_partial (sy : nat -> bool) (caught : exn -> bool) (flag : bool)
        (s : state) (h : list op) :
  (forall e, caught e = true) -> legal h = true -> Inv sy s -> s_init s = false -> benign (s_db s) ->
  disciplined false false (is_clean (s_ver s)) h = true -> transparent sy caught flag s h.
Proof. intros Hc. exact (transparent_reload sy caught flag Hc s h). Qed.
Print Assumptions C01_transparent_reload_partial.

(* Without that handling the full statement is false: [parse t; replace the file by garbage; parse t]. *)
Theorem C01_transparent_refuted_dberr (sy : nat -> bool) (caught : exn -> bool) :
  exists h, legal h = true /\ ~ transparent sy caught false init_state h.
Proof. exact (refuted_dberr sy caught false eq_refl). Qed.
Print Assumptions C01_transparent_refuted_dberr.

(* With a handler that misses class e (/repo before 9726f34 caught UnpicklingError only) it is false:
   [parse t; damage the entry so that unpickling raises e; parse t]. *)
Theorem C01_transparent_refuted_uncaught (sy : nat -> bool) (caught : exn -> bool) (flag : bool) (e : exn) :
  caught e = false -> sy 0%nat = true ->
  legal (witness_uncaught e) = true /\ ~ transparent sy caught flag init_state (witness_uncaught e).
Proof. exact (refuted_uncaught sy caught flag e). Qed.
Print Assumptions C01_transparent_refuted_uncaught.

(* non-vacuity: a concrete history with an entry fault, a file fault, a layout fault, a version change and
   an expiry that satisfies every hypothesis above (including the reload discipline), from the empty folder *)
Example C01_example :
  let h := [Parse 0 (30 * DAY) false; Parse 1 (30 * DAY) true; CorruptEntry 0 (Raises EOFError); Parse 0 (30 * DAY) false;
            CorruptFile; Reload; Parse 0 DAY false; SetVersion (Clean 1); Parse 0 (30 * DAY) false;
            CorruptLayout LModelsWrong; Advance (31 * DAY); Reload; Parse 1 (10 ^ 30) false; Parse 0 (-5) true] in
  legal h = true /\ Inv (fun t => Nat.eqb t 0) init_state /\ s_init init_state = false /\ benign (s_db init_state) /\
  disciplined false false (is_clean (s_ver init_state)) h = true /\
  run (fun t => Nat.eqb t 0) (fun _ => true) false init_state h =
    [OTree 0; ONoTree; ONone; OTree 0; ONone; ONone; OTree 0; ONone; OTree 0; ONone; ONone; ONone; ONoTree; OTree 0].
Proof. vm_compute. repeat split; exact I. Qed.
Print Assumptions C01_example.

(* the unrepairable faults (directory in place of the file, a view named models) in a concrete history, for a source
   with the DatabaseError fall-back: outputs as specified although nothing can be cached while the fault lasts *)
Example C01_example_unrepairable :
  let h := [Parse 0 (30 * DAY) false; CorruptLayout LModelsView; Parse 0 (30 * DAY) false; Parse 1 (30 * DAY) true;
            Reload; Parse 0 (30 * DAY) false; MakeDir; Parse 0 0 false; Reload; Parse 1 0 false; DeleteFile;
            Parse 0 (30 * DAY) false; Parse 0 (30 * DAY) false] in
  legal h = true /\
  run (fun t => Nat.eqb t 0) (fun _ => true) true init_state h =
    [OTree 0; ONone; OTree 0; ONoTree; ONone; OTree 0; ONone; OTree 0; ONone; ONoTree; ONone; OTree 0; OTree 0].
Proof. vm_compute. split; reflexivity. Qed.
Print Assumptions C01_example_unrepairable.
