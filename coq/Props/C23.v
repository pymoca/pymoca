(* C23 — out-of-range array subscripts are rejected, never reinterpreted.
   The predicates `agrees`, `in_range` and `wf` (a non-zero step, and a three-part range only where a:b:c is
   read start:step:stop) are defined in Proofs/C23_index.v.

   `index c n u` is the model of what the CasADi generator does with subscript u on a dimension of
   declared size n (selection of 1-based elements | ErrV = the generator's own ValueError | ErrB = any
   other exception); `modelica n u` is the specification (Modelica's 1-based inclusive ranges
   start:step:stop, ErrV as soon as one selected element is outside 1..n).  `c : cfg` says which
   repairs a tree contains (flags: slice check, loop-index check, Modelica three-part ranges, empty-loop
   repair, loop variable on a scalar rejected): `as_coded` is /repo before the fix commits, `repo_now` the
   INTERMEDIATE tree after 05b675f, f098077, f8eb4b4 and before 7248ed5, 3facb7b, `repo_head` is /repo HEAD.
   A loop subscript is either i+off (LoopV) or any integer expression of i built from constants, +, -, *
   (LoopX), evaluated pointwise on the loop values. *)
From Coq Require Import ZArith List Bool.
From PV Require Import Model.C23_index Proofs.C23_index.
Import ListNotations.
Open Scope Z_scope.

Definition as_coded : cfg := Cfg false false false false false.
Definition repo_now : cfg := Cfg true true false true false.

(* scalar subscripts, whatever the configuration and for every n: exactly the elements 1..n are
   accepted (and map to themselves), everything else -- 0, negatives, n+1.. -- raises ValueError *)
Theorem C23_scalar (c : cfg) (n i : Z) : index c n (Int i) = modelica n (Int i).
Proof. exact (index_int c n i). Qed.
Print Assumptions C23_scalar.

(* THE PROPERTY, for a tree with the range checks (fixes/C23_*.diff) and Modelica three-part ranges:
   every subscript form, every n >= 0, every integer bounds/steps/offsets: the outcome is the
   Modelica selection, or ValueError when an element is outside 1..n; the only deviation allowed by
   `agrees` is that a legal EMPTY selection may be refused with a backend error. *)
Theorem C23_checked (c : cfg) (n : Z) (u : sub) :
  chk_slice c = true -> chk_loop c = true ->
  step_of u <> 0 /\ (three_part u = true -> mod3 c = true) ->
  0 <= n ->
  agrees (index c n u) (modelica n u)
  /\ (modelica n u = ErrV -> index c n u = ErrV)                         (* rejected *)
  /\ (forall l, index c n u = Ok l -> modelica n u = Ok l)                (* never reinterpreted *)
  /\ (forall l, modelica n u = Ok l -> l <> [] -> index c n u = Ok l).    (* legal ones accepted *)
Proof.
  intros Hs Hl Hw Hn. pose proof (index_checked c n u Hs Hl Hw Hn) as A.
  split; [exact A|]. split; [apply agrees_reject; exact A|].
  split; intros l; [apply agrees_sound|apply agrees_complete]; exact A.
Qed.
Print Assumptions C23_checked.

(* with the empty-range repair as well the
   outcome IS the specification: full equality, no exception for empty selections *)
Theorem C23_checked_exact (c : cfg) (n : Z) (u : sub) :
  chk_slice c = true -> chk_loop c = true -> empty_ok c = true ->
  step_of u <> 0 /\ (three_part u = true -> mod3 c = true) ->
  0 <= n ->
  index c n u = modelica n u.
Proof. exact (index_checked_exact c n u). Qed.
Print Assumptions C23_checked_exact.

(* ... in particular for the intermediate tree `repo_now` and every two-part subscript (scalar, ':', a:b,
   loop index with offset), every n >= 0 and all integer bounds and offsets *)
Theorem C23_repo_now_two_part (n : Z) (u : sub) :
  three_part u = false -> 0 <= n -> index repo_now n u = modelica n u.
Proof.
  intros H3 Hn.
  exact (index_checked_exact repo_now n u eq_refl eq_refl eq_refl (two_part_wf repo_now u H3) Hn).
Qed.
Print Assumptions C23_repo_now_two_part.

(* SCALAR SYMBOLS (also a scalar member of a component array, a scalar component): every subscript --
   integer, ':', slice, loop expression -- is rejected with ValueError; for the bare loop variable this
   needs the fifth repair (without it: every subscript except the bare loop variable). *)
Theorem C23_scalar_symbol (c : cfg) (k : Z) (u : sub) :
  (is_loop u = true -> loop_step c u <> 0) ->
  (bare_loop u = false \/ chk_scalar_loop c = true) ->
  index_scalar c k u = modelica_scalar u.
Proof.
  intros Hs Hb. unfold index_scalar, modelica_scalar.
  assert (E1 : is_loop u && (loop_step c u =? 0) = false).
  { destruct (is_loop u); [|reflexivity]. apply Z.eqb_neq. exact (Hs eq_refl). }
  assert (E2 : bare_loop u && negb (chk_scalar_loop c) = false).
  { destruct Hb as [-> | ->]; [reflexivity | apply andb_false_r]. }
  rewrite E1, E2. reflexivity.
Qed.
Print Assumptions C23_scalar_symbol.

(* REFUTED for the tree before 7248ed5 (fixed finding loop-subscript-on-scalar): `Real x; for i in 1:1 loop x[i]`
   is accepted and selects the scalar itself *)
Theorem C23_scalar_symbol_refuted :
  exists u, modelica_scalar u = ErrV /\ index_scalar repo_now 1 u = Ok [1].
Proof. exists (LoopV 1 1 0). split; vm_compute; reflexivity. Qed.
Print Assumptions C23_scalar_symbol_refuted.

(* /repo HEAD (after 05b675f, f098077, f8eb4b4, 7248ed5, 3facb7b: every flag true): THE PROPERTY in
   full, for every subscript form incl. three-part ranges with any non-zero step and any integer
   expression of the loop variable, every n >= 0 *)
Definition repo_head : cfg := Cfg true true true true true.
Theorem C23_repo_head (n : Z) (u : sub) :
  step_of u <> 0 -> 0 <= n -> index repo_head n u = modelica n u.
Proof.
  intros Hs Hn.
  exact (index_checked_exact repo_head n u eq_refl eq_refl eq_refl (conj Hs (fun _ => eq_refl)) Hn).
Qed.
Print Assumptions C23_repo_head.

(* ... every subscript on a scalar symbol is rejected *)
Theorem C23_repo_head_scalar (k : Z) (u : sub) :
  (is_loop u = true -> loop_step repo_head u <> 0) -> index_scalar repo_head k u = ErrV.
Proof. intros Hs. exact (C23_scalar_symbol repo_head k u Hs (or_intror eq_refl)). Qed.
Print Assumptions C23_repo_head_scalar.

(* ... and several consecutive for-equations on the same array behave as independent subscripts: the
   first out-of-range loop raises ValueError, otherwise the selections are the Modelica ones in order *)
Theorem C23_multi (c : cfg) (n : Z) (us : list sub) :
  chk_slice c = true -> chk_loop c = true -> empty_ok c = true ->
  Forall (wf c) us -> 0 <= n ->
  index_multi c n us = modelica_multi n us.
Proof.
  intros Hs Hl He Hw Hn. unfold index_multi, modelica_multi. f_equal.
  apply map_ext_in. intros u Hu. rewrite Forall_forall in Hw.
  apply index_checked_exact; auto.
Qed.
Print Assumptions C23_multi.

(* NESTED for-equations whose subscript uses the inner index only: accepted => the selection is the inner
   Modelica selection repeated once per outer value; an out-of-range inner loop => ValueError -- whatever
   the outer range.  That the innermost loop of a name decides is a decision of the MODEL: `index_nested` does
   not look at `shadow` (the inner index reuses the outer name), and only the correspondence check ties that
   to the code. *)
Theorem C23_nested (c : cfg) (n oa ob : Z) (u : sub) (shadow : bool) :
  chk_slice c = true -> chk_loop c = true -> empty_ok c = true -> wf c u -> 0 <= n ->
  index_nested c n oa ob u shadow = modelica_nested n oa ob u
  /\ (modelica n u = ErrV -> index_nested c n oa ob u shadow = ErrV)
  /\ (forall l, index_nested c n oa ob u shadow = Ok l ->
       exists l0, modelica n u = Ok l0 /\ l = repeat_app (outer_count oa ob) l0).
Proof.
  intros Hs Hl He Hw Hn. unfold index_nested, modelica_nested.
  rewrite (index_checked_exact c n u Hs Hl He Hw Hn). split; [reflexivity|]. split.
  - intros ->. reflexivity.
  - intros l H. destruct (modelica n u) as [l0| |]; try discriminate.
    injection H as <-. exists l0. split; reflexivity.
Qed.
Print Assumptions C23_nested.

(* on HEAD: Real x[2]; for i in 1:2 loop for i in 0:1 loop .. x[i] is rejected; Real x[3]; for i in 1:2 loop
   for i in 1:3 loop x[i] selects 1,2,3 twice *)
Example C23_nested_example :
  index_nested repo_head 2 1 2 (LoopV 0 1 0) true = ErrV /\
  index_nested repo_head 2 1 2 (LoopV 1 3 0) true = ErrV /\
  index_nested repo_head 3 1 2 (LoopV 1 3 0) true = Ok [1; 2; 3; 1; 2; 3] /\
  index_nested repo_head 2 0 3 (LoopX 1 2 (LSub (LConst 3) LVar)) false = Ok [2; 1; 2; 1; 2; 1; 2; 1].
Proof. vm_compute. repeat split; reflexivity. Qed.
Print Assumptions C23_nested_example.

(* PARTIAL (what holds of /repo as it was, and of every configuration): two-part subscripts that stay
   inside the array -- scalar i, ':', a:b with 1 <= a and 0 <= b <= n, loop indices i+off all inside
   1..n -- select exactly the Modelica elements.  Missing for the full property: the out-of-range
   slices and loop indices (refuted below) and three-part ranges. *)
Theorem C23_in_range_partial (c : cfg) (n : Z) (u : sub) :
  0 <= n -> in_range n u -> index c n u = modelica n u.
Proof. exact (index_in_range c n u). Qed.
Print Assumptions C23_in_range_partial.

(* two dimensions (repaired tree): an accepted pair of subscripts selects the product of the two
   Modelica selections; in particular nothing is accepted when either subscript is out of range.
   PARTIAL in that the 2-D code paths themselves are tied by the correspondence check only. *)
Theorem C23_2d_checked (c : cfg) (n m : Z) (u v : sub) (l : list (Z * Z)) :
  chk_slice c = true -> chk_loop c = true -> wf c u -> wf c v -> 0 <= n -> 0 <= m ->
  index2 c n m u v = Ok l -> modelica2 n m u v = Ok l.
Proof.
  intros Hs Hl Hu Hv Hn Hm. unfold index2, modelica2.
  pose proof (index_checked c n u Hs Hl Hu Hn) as A1.
  pose proof (index_checked c m v Hs Hl Hv Hm) as A2.
  destruct ((is_loop u && (loop_step c u =? 0)) || (is_loop v && (loop_step c v =? 0))); [discriminate|].
  destruct (index c n u) as [l1| |] eqn:E1, (index c m v) as [l2| |] eqn:E2;
    try (destruct (Z.odd _); discriminate).
  rewrite (agrees_sound _ _ l1 A1 eq_refl), (agrees_sound _ _ l2 A2 eq_refl). auto.
Qed.
Print Assumptions C23_2d_checked.

(* The property is REFUTED for `as_coded` by the next three witnesses (fixed findings).
   x[0:2] on Real x[3]: out of range, yet generation succeeds and selects nothing *)
Theorem C23_slice_refuted :
  exists n u, modelica n u = ErrV /\ index as_coded n u = Ok [].
Proof. exists 3, (Sl 0 2). split; vm_compute; reflexivity. Qed.
Print Assumptions C23_slice_refuted.

(* x[(0-1):2] on Real x[3]: out of range, yet element 2 alone is selected *)
Theorem C23_slice_wrap_refuted :
  exists n u, modelica n u = ErrV /\ index as_coded n u = Ok [2].
Proof. exists 3, (Sl (-1) 2). split; vm_compute; reflexivity. Qed.
Print Assumptions C23_slice_wrap_refuted.

(* for i in 0:3 loop x[i]: index 0 is read as the LAST element *)
Theorem C23_loop_refuted :
  exists n u, modelica n u = ErrV /\ index as_coded n u = Ok [3; 1; 2; 3].
Proof. exists 3, (LoopV 0 3 0). split; vm_compute; reflexivity. Qed.
Print Assumptions C23_loop_refuted.

(* x[1:3:2] on Real x[3]: Modelica start 1, step 3, stop 2 = {1}; read as start:stop:step = {1,3},
   with or without the range checks -- every tree before 3facb7b (fixed finding three-part-range) *)
Theorem C23_three_part_refuted (cs cl ce cx : bool) :
  modelica 3 (Sl3 1 3 2) = Ok [1] /\ index (Cfg cs cl false ce cx) 3 (Sl3 1 3 2) = Ok [1; 3].
Proof. destruct cs; split; reflexivity. Qed.
Print Assumptions C23_three_part_refuted.

(* non-vacuity: the hypotheses of C23_checked are satisfiable and the conclusion is not trivial --
   a repaired configuration rejects x[0:2] and the wrapped loop, and accepts x[2:3] as {2,3} *)
Example C23_example :
  let c := Cfg true true true true true in
  let sq := LMul (LSub LVar (LConst 2)) (LSub LVar (LConst 2)) in     (* (i-2)*(i-2): 1,0,1 on 1:3 *)
  wf c (Sl3 3 (-1) 1) /\ index c 3 (LoopV 3 1 1) = Ok [] /\
  index c 3 (LoopX 1 3 sq) = ErrV /\ index c 3 (LoopX 1 3 (LAdd sq (LConst 1))) = Ok [2; 1; 2] /\
  index_scalar c 1 (LoopV 1 1 0) = ErrV /\
  index c 3 (Sl 0 2) = ErrV /\ index c 3 (LoopV 0 3 0) = ErrV /\
  index c 3 (Sl 2 3) = Ok [2; 3] /\ index c 3 (Sl3 3 (-1) 1) = Ok [3; 2; 1] /\
  index c 3 (LoopV 1 2 1) = Ok [2; 3].
Proof. vm_compute. repeat split; try reflexivity; intros H; discriminate H. Qed.
Print Assumptions C23_example.
