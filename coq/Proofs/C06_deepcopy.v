(* C06 — proofs about Model/C06_deepcopy.v: the copy (flags = fixed_flags), and what operations do to the
   trees that are there (any flags). *)
From Coq Require Import List Arith Bool.
From PV Require Import Lib.ObjGraph Model.C06_deepcopy.
Import ListNotations.

Lemma strip_app p r : strip p (p ++ r) = Some r.
Proof. induction p as [|x p IH]; simpl; auto. rewrite Nat.eqb_refl. exact IH. Qed.

Lemma strip_sound p : forall q r, strip p q = Some r -> q = p ++ r.
Proof.
  induction p as [|x p IH]; simpl; intros q r H.
  - congruence.
  - destruct q as [|y q]; [discriminate|].
    destruct (Nat.eqb x y) eqn:E; [|discriminate].
    apply Nat.eqb_eq in E. subst y. f_equal. apply IH. exact H.
Qed.

Lemma strip_snoc_nil p k : strip (p ++ [k]) [] = None.
Proof. destruct p; reflexivity. Qed.

Lemma sub_nil t : sub [] t = t.
Proof. induction t as [|[q i] t IH]; simpl; congruence. Qed.

Lemma assoc_In {B} p (t : list (path * B)) i : assoc p t = Some i -> In (p, i) t.
Proof.
  induction t as [|[q j] t IH]; simpl; [discriminate|].
  destruct (path_dec p q); intros H.
  - left. congruence.
  - right. auto.
Qed.

Lemma nth_error_snoc {A} (l : list A) x : nth_error (l ++ [x]) (length l) = Some x.
Proof. rewrite nth_error_app2, Nat.sub_diag by apply le_n. reflexivity. Qed.

Lemma src_of_root w ti i0 rest :
  src_of w (ti, []) = Some (i0, rest) <-> nth_error w ti = Some (([], i0) :: rest).
Proof.
  unfold src_of. cbn [fst snd]. destruct (nth_error w ti) as [t|]; [|split; discriminate].
  rewrite sub_nil. destruct t as [|[[|x q] j] t']; cbn iota; split; intros E; try discriminate E;
    injection E as <- <-; reflexivity.
Qed.

Lemma nth_set_nth_other {A} (x : A) : forall l i j, i <> j -> nth_error (set_nth i x l) j = nth_error l j.
Proof.
  induction l as [|y l IH]; intros [|i] [|j] H; simpl; auto; try congruence.
Qed.

Lemma nth_set_nth_eq {A} (x : A) : forall l i y, nth_error l i = Some y -> nth_error (set_nth i x l) i = Some x.
Proof. induction l as [|z l IH]; intros [|i] y H; try discriminate H; simpl; eauto. Qed.

Lemma set_nth_same {A} (x : A) : forall l i, nth_error l i = Some x -> set_nth i x l = l.
Proof.
  induction l as [|z l IH]; intros [|i] H; try discriminate H; simpl in *.
  - congruence.
  - f_equal. auto.
Qed.

Lemma length_set_nth {A} (x : A) : forall l i, length (set_nth i x l) = length l.
Proof. induction l as [|y l IH]; intros [|i]; simpl; auto. Qed.

Lemma upd_tree_other w ti f j : j <> ti -> nth_error (upd_tree w ti f) j = nth_error w j.
Proof.
  intros H. unfold upd_tree. destruct (nth_error w ti); auto. apply nth_set_nth_other. auto.
Qed.

Lemma upd_tree_same w ti f : nth_error (upd_tree w ti f) ti = option_map f (nth_error w ti).
Proof.
  unfold upd_tree. destruct (nth_error w ti) as [t|] eqn:E; [|exact E].
  exact (nth_set_nth_eq _ _ _ _ E).
Qed.

Lemma upd_tree_length w ti f : length (upd_tree w ti f) = length w.
Proof. unfold upd_tree. destruct (nth_error w ti); auto. apply length_set_nth. Qed.

(* the classes owned by the class being copied: no foreign hook, parent = owner (by
   address), owner reached before the class *)
Fixpoint wf_rest (ti : nat) (p : path) (seen : list path) (rest : list (path * info)) : Prop :=
  match rest with
  | [] => True
  | (r, i) :: rest' =>
      r <> [] /\ hk i = None /\ par i = Some (ti, p ++ removelast r) /\ In (removelast r) seen /\
      wf_rest ti p (r :: seen) rest'
  end.

Definition wf_at (w : world) (a : addr) (i0 : info) (rest : list (path * info)) : Prop :=
  src_of w a = Some (i0, rest) /\ hk i0 = None /\ par i0 <> Some a /\
  wf_rest (fst a) (snd a) [[]] rest.

(* what the copy must be: same names and content; every owned class's parent is its
   owner IN THE COPY; the root keeps the parent of the source root; no hooks *)
Definition spec_node (n : nat) (e : path * info) : path * info :=
  (fst e, Info (dat (snd e)) (Some (n, removelast (fst e))) None).
Definition spec_copy (n : nat) (i0 : info) (rest : list (path * info)) : tree :=
  ([], Info (dat i0) (par i0) None) :: map (spec_node n) rest.

Lemma wf_rest_nonroot ti p : forall rest seen r i, wf_rest ti p seen rest -> In (r, i) rest ->
  r <> [] /\ par i = Some (ti, p ++ removelast r) /\ hk i = None.
Proof.
  induction rest as [|[r0 i0] rest IH]; simpl; intros seen r i H Hin; [contradiction|].
  destruct H as (Hr & Hh & Hp & _ & H). destruct Hin as [E|Hin].
  - injection E as <- <-. auto.
  - eauto.
Qed.

Lemma mget_same m a v : mget ((a, v) :: m) a = Some v.
Proof. cbn [mget]. destruct (addr_dec a a) as [_|N]; [reflexivity|exfalso; apply N; reflexivity]. Qed.

Lemma mget_other m a b v : a <> b -> mget ((b, v) :: m) a = mget m a.
Proof. intros H. cbn [mget]. destruct (addr_dec a b) as [E|_]; [exfalso; auto|reflexivity]. Qed.

(* the memo invariant while the owned classes are copied *)
Lemma memo_push n ti p m seen (r : path) :
  (forall r', In r' seen -> mget m (ti, p ++ r') = Some (n, r')) ->
  forall r', In r' (r :: seen) -> mget (((ti, p ++ r), (n, r)) :: m) (ti, p ++ r') = Some (n, r').
Proof.
  intros Hm r' Hin. cbn [mget]. destruct (addr_dec (ti, p ++ r') (ti, p ++ r)) as [E|N].
  - injection E as E. apply app_inv_head in E. rewrite E. reflexivity.
  - destruct Hin as [<-|Hin]; [exfalso; apply N; reflexivity|exact (Hm _ Hin)].
Qed.

Lemma copy_rest_spec n ti p : forall rest m seen,
  wf_rest ti p seen rest ->
  (forall r', In r' seen -> mget m (ti, p ++ r') = Some (n, r')) ->
  copy_ents fixed_flags n ti p m rest = map (spec_node n) rest.
Proof.
  induction rest as [|[r i] rest IH]; intros m seen Hwf Hm; [reflexivity|].
  destruct Hwf as (Hr & Hh & Hp & Hin & Hwf).
  cbn [copy_ents copy_node map]. rewrite Hp.
  unfold guard. cbn [g_fixed h_fixed fixed_flags]. rewrite (Hm _ Hin).
  pose proof (memo_push _ _ _ _ _ r Hm) as Hm'.
  rewrite (Hm' _ (or_intror Hin)). f_equal. exact (IH _ _ Hwf Hm').
Qed.

(* the core lemma: with the guard and hook as now coded, copy.deepcopy of the class at
   `a` appends exactly spec_copy and leaves every existing tree as it was *)
Lemma deepcopy_spec w a i0 rest :
  wf_at w a i0 rest ->
  deepcopy fixed_flags w a = Some (w ++ [spec_copy (length w) i0 rest]).
Proof.
  intros (Hs & Hh & Hp & Hwf). destruct a as [ti p]. cbn [fst snd] in *.
  assert (Hk : forallb (fun e => no_hook (snd e)) rest = true).
  { apply forallb_forall. intros [r i] Hin. destruct (wf_rest_nonroot _ _ _ _ _ _ Hwf Hin) as (_ & _ & E).
    unfold no_hook. cbn [snd]. rewrite E. reflexivity. }
  unfold deepcopy. rewrite Hs, Hh, Hs, Hk. unfold no_hook. rewrite Hh. cbn [andb].
  f_equal. f_equal. f_equal.
  unfold spec_copy. cbn [copy_ents copy_node fst snd].
  f_equal.
  - (* the root: its parent is not the root itself, so the pin is what the memo returns *)
    f_equal. f_equal. destruct (par i0) as [pa|]; [|reflexivity].
    change (guard fixed_flags [] pa) with true. cbn iota.
    rewrite mget_other, mget_same; [reflexivity|].
    rewrite app_nil_r. intros ->. exact (Hp eq_refl).
  - apply (copy_rest_spec _ _ _ _ _ [[]] Hwf). apply memo_push. intros _ [].
Qed.

Definition erase (t : list (path * info)) : list (path * cdata) := map (fun e => (fst e, dat (snd e))) t.

Lemma spec_copy_iso n i0 rest : erase (spec_copy n i0 rest) = erase (([], i0) :: rest).
Proof.
  unfold spec_copy, erase. cbn [map fst snd dat]. f_equal. rewrite map_map. reflexivity.
Qed.

(* closed inside tree ti: parent of every owned class = its owner in the same tree *)
Definition closed_below (ti : nat) (t : tree) : Prop :=
  forall r i, In (r, i) t -> r <> [] -> par i = Some (ti, removelast r) /\ hk i = None.
(* a self-contained tree: additionally the root has no parent *)
Definition closed_tree (ti : nat) (t : tree) : Prop :=
  forall r i, In (r, i) t -> par i = match r with [] => None | _ => Some (ti, removelast r) end.

Lemma wf_rest_closed ti i0 rest seen : wf_rest ti [] seen rest ->
  closed_below ti (([], i0) :: rest) /\ (par i0 = None -> closed_tree ti (([], i0) :: rest)).
Proof.
  intros Hwf. split; [|intros Hp]; intros r i [E|Hin].
  - injection E as <- _. intros N. contradiction.
  - destruct (wf_rest_nonroot _ _ _ _ _ _ Hwf Hin) as (_ & Hpar & Hh). auto.
  - injection E as <- <-. exact Hp.
  - destruct (wf_rest_nonroot _ _ _ _ _ _ Hwf Hin) as (Hr & Hpar & _).
    rewrite Hpar. destruct r; [contradiction|reflexivity].
Qed.

Lemma wf_rest_spec n ti p : forall rest seen,
  wf_rest ti p seen rest -> wf_rest n [] seen (map (spec_node n) rest).
Proof.
  induction rest as [|[r i] rest IH]; simpl; intros seen H; auto.
  destruct H as (Hr & Hh & Hp & Hin & H). repeat split; auto.
Qed.

Lemma wf_at_copy w a i0 rest :
  wf_at w a i0 rest -> (forall pa, par i0 = Some pa -> fst pa < length w) ->
  wf_at (w ++ [spec_copy (length w) i0 rest]) (length w, [])
        (Info (dat i0) (par i0) None) (map (spec_node (length w)) rest).
Proof.
  intros (_ & _ & _ & Hwf) Hsc. repeat split.
  - apply src_of_root. apply nth_error_snoc.
  - cbn [par]. intros E. exact (Nat.lt_irrefl _ (Hsc _ E)).
  - exact (wf_rest_spec _ _ _ _ _ Hwf).
Qed.

Lemma copy_facts w a i0 rest :
  wf_at w a i0 rest ->
  let c := spec_copy (length w) i0 rest in
  deepcopy fixed_flags w a = Some (w ++ [c]) /\ erase c = erase (([], i0) :: rest) /\
  closed_below (length w) c /\ (par i0 = None -> closed_tree (length w) c).
Proof.
  intros H c. split; [exact (deepcopy_spec _ _ _ _ H)|]. split; [apply spec_copy_iso|].
  destruct H as (_ & _ & _ & Hwf).
  exact (wf_rest_closed _ (Info (dat i0) (par i0) None) _ _ (wf_rest_spec (length w) _ _ _ _ Hwf)).
Qed.

(* copy of the copy: a copy of THE COPY (not of the original), again self-contained *)
Lemma copy_of_copy w a i0 rest :
  wf_at w a i0 rest -> (forall pa, par i0 = Some pa -> fst pa < length w) ->
  let c := spec_copy (length w) i0 rest in
  exists c', deepcopy fixed_flags (w ++ [c]) (length w, []) = Some ((w ++ [c]) ++ [c']) /\
    erase c' = erase c /\ closed_below (S (length w)) c' /\
    (par i0 = None -> closed_tree (S (length w)) c').
Proof.
  intros Hwf Hsc c.
  pose proof (copy_facts _ _ _ _ (wf_at_copy _ _ _ _ Hwf Hsc)) as H.
  rewrite app_length, Nat.add_1_r in H. eexists. exact H.
Qed.

Lemma deepcopy_frame fl w a w' : deepcopy fl w a = Some w' -> exists c, w' = w ++ [c].
Proof.
  unfold deepcopy. destruct (src_of w a) as [[i0 r0]|]; [|discriminate].
  destruct (src_of w _) as [[i1 r1]|]; [|discriminate].
  destruct (_ && _); [|discriminate]. intros E. injection E as <-. eauto.
Qed.

(* an operation leaves tree j alone unless it is an edit addressed to tree j *)
Definition touches (o : op) (j : nat) : Prop :=
  match o with DeepCopy _ => False | _ => op_tree o = j end.

(* what an edit does to the tree it is addressed to: apply_op tests its preconditions through `get`, which
   reads that tree only, so they can be tested inside the update (apply_op_edit) *)
Definition edit (o : op) (t : tree) : tree :=
  match o with
  | DeepCopy _ => t
  | AddClass a k d =>
      if is_some (assoc (snd a) t) && negb (is_some (assoc (snd a ++ [k]) t))
      then t ++ [(snd a ++ [k], Info d (Some a) None)] else t
  | RmClass a k => filter (fun e => negb (is_some (strip (snd a ++ [k]) (fst e)))) t
  | SetData a d => map (fun e => if path_dec (fst e) (snd a)
                                 then (fst e, Info d (par (snd e)) (hk (snd e))) else e) t
  | AddTree a k ents =>
      if is_some (assoc (snd a) t) then
        let t' := filter (fun e => negb (is_some (strip (snd a ++ [k]) (fst e)))) t ++
                  map (fun e => (snd a ++ k :: fst e,
                                 Info (snd e) (Some (fst a, removelast (snd a ++ k :: fst e))) None)) ents in
        if wf_treeb (fst a) t' then t' else t
      else t
  end.

Lemma apply_op_edit fl w o ti : touches o ti -> apply_op fl w o = upd_tree w ti (edit o).
Proof.
  intros Ht. destruct o as [a|a k d|a k|a d|a k ents]; cbn [touches op_tree] in Ht; [contradiction|subst ti ..].
  - (* where the precondition fails the tree is put back as it is *)
    cbn [apply_op]. unfold upd_tree, get. cbn [fst snd edit].
    destruct (nth_error w (fst a)) as [t|] eqn:E; [|reflexivity].
    destruct (_ && _); [reflexivity|]. symmetry. exact (set_nth_same _ _ _ E).
  - reflexivity.
  - reflexivity.
  - cbn [apply_op]. unfold upd_tree, get. cbn [fst snd edit].
    destruct (nth_error w (fst a)) as [t|] eqn:E; [|reflexivity].
    destruct (is_some _); [reflexivity|]. symmetry. exact (set_nth_same _ _ _ E).
Qed.

Lemma apply_op_other fl w o j t :
  nth_error w j = Some t -> ~ touches o j -> nth_error (apply_op fl w o) j = Some t.
Proof.
  intros Hj Ht. destruct o as [a| | | |];
    [|erewrite apply_op_edit by reflexivity; rewrite upd_tree_other;
      [exact Hj|intros ->; apply Ht; reflexivity] ..].
  cbn [apply_op]. destruct (deepcopy fl w a) as [w'|] eqn:E; [|exact Hj].
  destruct (deepcopy_frame _ _ _ _ E) as (c & ->).
  rewrite nth_error_app1; [exact Hj|]. apply nth_error_Some. congruence.
Qed.

Lemma apply_op_same fl w o j t :
  nth_error w j = Some t -> touches o j -> nth_error (apply_op fl w o) j = Some (edit o t).
Proof. intros Hj Ht. rewrite (apply_op_edit fl w o j Ht), upd_tree_same, Hj. reflexivity. Qed.

Lemma run_inv fl (Q : op -> Prop) (P : world -> Prop) :
  (forall w o, Q o -> P w -> P (apply_op fl w o)) ->
  forall ops w, (forall o, In o ops -> Q o) -> P w -> P (run fl ops w).
Proof.
  intros Hstep. induction ops as [|o ops IH]; intros w HQ Hw; [exact Hw|].
  apply IH; [intros o' Ho'; apply HQ; right; exact Ho'|]. apply Hstep; [apply HQ; left; reflexivity|exact Hw].
Qed.

Lemma run_frame fl ops w j t :
  nth_error w j = Some t -> (forall o, In o ops -> ~ touches o j) -> nth_error (run fl ops w) j = Some t.
Proof.
  intros Hj H. apply (run_inv fl (fun o => ~ touches o j) (fun w' => nth_error w' j = Some t)); [|exact H|exact Hj].
  intros w' o Ho Hj'. exact (apply_op_other fl w' o j t Hj' Ho).
Qed.

Lemma get_same w w' ti p : nth_error w' ti = nth_error w ti -> get w' (ti, p) = get w (ti, p).
Proof. intros H. unfold get. cbn [fst snd]. rewrite H. reflexivity. Qed.

Lemma nav1_same w w' ti p s :
  nth_error w' ti = nth_error w ti -> nav1 w' (ti, p) s = nav1 w (ti, p) s.
Proof.
  intros H. destruct s as [|k]; unfold nav1; cbn [fst snd]; rewrite (get_same _ _ _ _ H); reflexivity.
Qed.

Lemma nav1_stays w ti t p s a' :
  nth_error w ti = Some t -> closed_tree ti t -> nav1 w (ti, p) s = Some a' -> fst a' = ti.
Proof.
  intros Ht Hc. destruct s as [|k]; unfold nav1; cbn [fst snd].
  - destruct (get w (ti, p)) as [i|] eqn:G; [|discriminate].
    unfold get in G. cbn [fst snd] in G. rewrite Ht in G. apply assoc_In in G.
    rewrite (Hc _ _ G). destruct p; [discriminate|]. intros E. injection E as <-. reflexivity.
  - destruct (get w (ti, p ++ [k])); [|discriminate]. intros E. injection E as <-. reflexivity.
Qed.

Lemma nav_closed w w' ti t :
  nth_error w ti = Some t -> closed_tree ti t -> nth_error w' ti = nth_error w ti ->
  forall ss p, nav w' (ti, p) ss = nav w (ti, p) ss /\
               (forall a', nav w (ti, p) ss = Some a' -> fst a' = ti).
Proof.
  intros Ht Hc Hsame. induction ss as [|s ss IH]; intros p.
  - cbn. split; auto. intros a' E. injection E as <-. reflexivity.
  - cbn [nav]. rewrite (nav1_same _ _ _ _ _ Hsame).
    destruct (nav1 w (ti, p) s) as [[tj q]|] eqn:N; [|split; [auto|discriminate]].
    apply (nav1_stays _ _ _ _ _ _ Ht Hc) in N. cbn in N. subst tj. apply IH.
Qed.

Lemma see_closed w w' ti t :
  nth_error w ti = Some t -> closed_tree ti t -> nth_error w' ti = nth_error w ti ->
  forall p ss, see w' (ti, p) ss = see w (ti, p) ss.
Proof.
  intros Ht Hc Hsame p ss. unfold see.
  destruct (nav_closed _ _ _ _ Ht Hc Hsame ss p) as (E & Hin). rewrite E.
  destruct (nav w (ti, p) ss) as [[tj q]|] eqn:N; auto.
  specialize (Hin _ eq_refl). cbn in Hin. subst tj. rewrite (get_same _ _ _ _ Hsame). reflexivity.
Qed.

Lemma edits_invisible fl ops w ti t :
  nth_error w ti = Some t -> closed_tree ti t ->
  (forall o, In o ops -> ~ touches o ti) ->
  forall p ss, see (run fl ops w) (ti, p) ss = see w (ti, p) ss.
Proof.
  intros Ht Hc Hops p ss. apply (see_closed _ _ _ _ Ht Hc). rewrite Ht. exact (run_frame _ _ _ _ _ Ht Hops).
Qed.
