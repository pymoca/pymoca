(* C15 — square: an eliminating pass filters the algebraic variables by the names it defines;
   detect_aliases under the invariant `relinv` of its alias relation; the composition. *)
From Coq Require Import ZArith QArith Qcanon List Bool PArith Lia Permutation.
Import ListNotations.
From PV Require Import Model.C14_simplify Proofs.C14_simplify Proofs.C14_compose.

Definition mnames (R : list acls) : list name := flat_map (fun cl => map fst (snd cl)) R.
Definition cnames (R : list acls) : list name := map fst R.

(* invariant of the alias relation during detect_aliases: member names are pairwise distinct,
   no canonical variable is a member, no member is in do_not_eliminate *)
Definition relinv (dne : list name) (R : list acls) : Prop :=
  NoDup (mnames R) /\ (forall c, In c (cnames R) -> ~ In c (mnames R))
  /\ (forall x, In x (mnames R) -> mem x dne = false).

Lemma canon_cases R x :
  (In (fst (canon R x)) (cnames R) \/ (fst (canon R x) = x /\ ~ In x (mnames R)))
  /\ (fst (canon R x) = x \/ In x (mnames R)).
Proof.
  induction R as [| [c ms] R IH]; simpl.
  - split; [right; split; auto | left; reflexivity].
  - destruct (Pos.eqb c x) eqn:E.
    + apply Pos.eqb_eq in E. subst. simpl. split; [left; left; reflexivity | left; reflexivity].
    + destruct (lookup x ms) as [n |] eqn:L; simpl.
      * split; [left; left; reflexivity | right; apply in_or_app; left; eapply lookup_some_in; eauto].
      * destruct IH as [[IH1 | [IH1 IH2]] IH3]; split.
        -- left. right. exact IH1.
        -- destruct IH3; [left; assumption | right; apply in_or_app; right; assumption].
        -- right. split; auto. intro K. apply in_app_or in K. destruct K as [K | K]; auto.
           eapply lookup_none_notin; eauto.
        -- destruct IH3; [left; assumption | right; apply in_or_app; right; assumption].
Qed.

Lemma canon_not_member dne R x : relinv dne R -> ~ In (fst (canon R x)) (mnames R).
Proof.
  intros [_ [I2 _]]. destruct (canon_cases R x) as [[H | [H1 H2]] _]; [now apply I2 | now rewrite H1].
Qed.
Lemma canon_dne dne R x : relinv dne R -> mem x dne = true -> fst (canon R x) = x.
Proof.
  intros [_ [_ M1]] Hx. destruct (canon_cases R x) as [_ [H | H]]; auto.
  rewrite (M1 _ H) in Hx. discriminate.
Qed.

Lemma mnames_filter_perm (p : acls -> bool) R :
  Permutation (mnames (filter (fun cl => negb (p cl)) R) ++ mnames (filter p R)) (mnames R).
Proof.
  induction R as [| cl R IH]; simpl; auto.
  destruct (p cl); simpl.
  - unfold mnames at 2. simpl. fold (mnames (filter p R)).
    eapply Permutation_trans; [apply Permutation_app_swap_app |]. now apply Permutation_app_head.
  - unfold mnames at 1. simpl. fold (mnames (filter (fun cl0 => negb (p cl0)) R)).
    rewrite <- app_assoc. now apply Permutation_app_head.
Qed.

Lemma map_fst_members_of c R : map fst (members_of c R) = mnames (filter (fun cl => Pos.eqb (fst cl) c) R).
Proof.
  unfold members_of, mnames. induction (filter (fun cl => Pos.eqb (fst cl) c) R) as [| cl l IH]; simpl; auto.
  rewrite map_app, IH. reflexivity.
Qed.

Lemma arel_add_struct dne R a b nb R' :
  relinv dne R -> arel_add R a b nb = Some R' ->
  mem (fst (canon R b)) dne = false ->
  R' = R
  \/ (Permutation (mnames R') (fst (canon R b) :: mnames R) /\ relinv dne R').
Proof.
  intros Inv. unfold arel_add.
  pose proof (canon_not_member dne R a Inv) as Na. pose proof (canon_not_member dne R b Inv) as Nb.
  destruct (canon R a) as [ca na]. destruct (canon R b) as [cb nb0]. simpl in *.
  destruct (Pos.eqb ca cb) eqn:E.
  - destruct (Bool.eqb na (xorb nb nb0)); try discriminate. intros H _. inversion H.
    now left.
  - intros H Hd. inversion H. subst R'. clear H. right.
    apply Pos.eqb_neq in E.
    set (flip := xorb na (xorb nb nb0)).
    assert (P : Permutation (mnames (arel_remove cb R ++
                 [(ca, (cb, flip) :: map (fun '(v, n) => (v, xorb n flip)) (members_of cb R))]))
                            (cb :: mnames R)).
    { unfold mnames at 1. rewrite flat_map_app. fold (mnames (arel_remove cb R)). simpl.
      rewrite app_nil_r, map_map, (map_ext _ fst), map_fst_members_of by now intros [v n].
      eapply Permutation_trans; [apply Permutation_sym; apply Permutation_middle |].
      apply perm_skip. unfold arel_remove.
      apply (mnames_filter_perm (fun cl => Pos.eqb (fst cl) cb) R). }
    split; [exact P |].
    destruct Inv as [I1 [I2 M1]].
    split; [| split].
    + eapply Permutation_NoDup; [apply Permutation_sym; exact P |]. constructor; auto.
    + intros c Hc Hm. apply (Permutation_in _ P) in Hm.
      unfold cnames in Hc. rewrite map_app in Hc. apply in_app_or in Hc. simpl in Hc.
      destruct Hc as [Hc | [Hc | []]].
      * apply in_map_iff in Hc. destruct Hc as [cl [Ec Hc]]. unfold arel_remove in Hc.
        apply filter_In in Hc. destruct Hc as [Hc Hne]. apply negb_true_iff in Hne. apply Pos.eqb_neq in Hne.
        subst c. destruct Hm as [Hm | Hm]; [exfalso; apply Hne; symmetry; exact Hm |].
        apply (I2 (fst cl)); auto. unfold cnames. now apply in_map.
      * subst c. destruct Hm as [Hm | Hm]; [exfalso; apply E; symmetry; exact Hm | contradiction].
    + intros x Hx. apply (Permutation_in _ P) in Hx. destruct Hx as [<- | Hx]; auto.
Qed.

Definition declared (al dne : list name) (x : name) : Prop := mem x al = true \/ mem x dne = true.

Lemma make_alias_cb ad al dl dne R d0 d1 neg R' :
  relinv dne R -> declared al dne d0 -> declared al dne d1 ->
  make_alias ad al dl dne R d0 d1 neg = Some R' ->
  exists a o, arel_add R o a neg = Some R' /\ mem (fst (canon R a)) dne = false.
Proof.
  (* a declared name that is not algebraic is in do_not_eliminate and its own canonical (canon_dne):
     if the other canonical is in do_not_eliminate too, the guard returns None *)
  intros Inv D0 D1. unfold make_alias.
  destruct (mem d0 al) eqn:A0.
  - destruct (mem d1 al) eqn:A1; simpl.
    + destruct (mem (fst (canon R d0)) dne) eqn:C0; simpl.
      * destruct (negb ad && (mem d1 dl || mem d0 dl)); try discriminate.
        destruct (mem (fst (canon R d1)) dne) eqn:C1; rewrite ?C0; simpl; try discriminate.
        intro H. exists d1, d0. auto.
      * destruct (negb ad && (mem d0 dl || mem d1 dl)); try discriminate.
        rewrite C0. simpl. intro H. exists d0, d1. auto.
    + destruct (negb ad && (mem d0 dl || mem d1 dl)); try discriminate.
      destruct (mem (fst (canon R d0)) dne) eqn:C0; simpl.
      * destruct D1 as [D1 | D1]; [congruence |].
        rewrite (canon_dne dne R d1 Inv D1), D1. discriminate.
      * intro H. exists d0, d1. auto.
  - destruct (mem d1 al) eqn:A1; simpl; try discriminate.
    destruct (negb ad && (mem d1 dl || mem d0 dl)); try discriminate.
    destruct (mem (fst (canon R d1)) dne) eqn:C1; simpl.
    + destruct D0 as [D0 | D0]; [congruence |].
      rewrite (canon_dne dne R d0 Inv D0), D0. discriminate.
    + intro H. exists d1, d0. auto.
Qed.

(* no alias equation is redundant: every alias that is made adds a member *)
Fixpoint da_nored (ad : bool) (al dl dne pc : list name) (R : list acls) (es : list expr) : bool :=
  match es with
  | [] => true
  | e :: es' =>
      match detect_alias pc e with
      | Some (d0, d1, neg) =>
          match make_alias ad al dl dne R d0 d1 neg with
          | Some R1 => Nat.eqb (length (mnames R1)) (S (length (mnames R)))
                       && da_nored ad al dl dne pc R1 es'
          | None => da_nored ad al dl dne pc R es'
          end
      | None => da_nored ad al dl dne pc R es'
      end
  end.

Definition da_decl (pc al dne : list name) (es : list expr) : Prop :=
  forall e d0 d1 n, In e es -> detect_alias pc e = Some (d0, d1, n) ->
                    declared al dne d0 /\ declared al dne d1.

(* only the count needs da_nored *)
Lemma da_loop_struct ad al dl dne pc : forall es R R' kept,
  relinv dne R -> da_decl pc al dne es ->
  da_loop ad al dl dne pc R es = (R', kept) ->
  incl kept es /\ relinv dne R' /\ incl (mnames R) (mnames R')
  /\ (da_nored ad al dl dne pc R es = true ->
      length (mnames R') + length kept = length (mnames R) + length es)%nat.
Proof.
  induction es as [| e es IH]; intros R R' kept Inv Hd; simpl.
  - intro H. inversion H. subst. repeat split; [apply incl_refl | apply Inv .. | apply incl_refl].
  - assert (Hd' : da_decl pc al dne es) by (intros e' d0 d1 n Hin; apply Hd; now right).
    assert (Kept : forall R2 k2, da_loop ad al dl dne pc R es = (R2, k2) ->
      incl (e :: k2) (e :: es) /\ relinv dne R2 /\ incl (mnames R) (mnames R2)
      /\ (da_nored ad al dl dne pc R es = true ->
          length (mnames R2) + S (length k2) = length (mnames R) + S (length es))%nat).
    { intros R2 k2 E. destruct (IH _ _ _ Inv Hd' E) as [K [I' [Im L]]].
      split; [apply incl_cons; [now left | now apply incl_tl] | split; [exact I' | split; [exact Im |]]].
      intro Hn. specialize (L Hn). lia. }
    destruct (detect_alias pc e) as [[[d0 d1] neg] |] eqn:D;
      [destruct (make_alias ad al dl dne R d0 d1 neg) as [R1 |] eqn:M |].
    2, 3: destruct (da_loop ad al dl dne pc R es) as [R2 k2]; intros [= <- <-]; exact (Kept _ _ eq_refl).
    intro H. destruct (Hd e d0 d1 neg (or_introl eq_refl) D) as [D0 D1].
    destruct (make_alias_cb _ _ _ _ _ _ _ _ _ Inv D0 D1 M) as [a [o [Add Hcb]]].
    destruct (arel_add_struct dne R o a neg R1 Inv Add Hcb) as [-> | [P Inv1]].
    + (* already aliases: no member is added, which da_nored excludes *)
      destruct (IH _ _ _ Inv Hd' H) as [K [I' [Im L]]].
      split; [now apply incl_tl | split; [exact I' | split; [exact Im |]]].
      intro Hn. apply andb_true_iff in Hn. destruct Hn as [Hl _]. apply Nat.eqb_eq in Hl. lia.
    + destruct (IH _ _ _ Inv1 Hd' H) as [K [I' [Im L]]].
      split; [now apply incl_tl | split; [exact I' | split]].
      * intros x Hx. apply Im, (Permutation_in _ (Permutation_sym P)). now right.
      * intro Hn. apply andb_true_iff in Hn. destruct Hn as [Hl Hn]. apply Nat.eqb_eq in Hl.
        specialize (L Hn). cbn [length]. lia.
Qed.

Lemma old_member_mem R0 a : old_member R0 a = mem a (mnames R0).
Proof.
  apply eq_true_iff_eq. rewrite mem_In. unfold old_member, mnames. rewrite existsb_exists, in_flat_map.
  split; intros [cl [H1 H2]]; exists cl; (split; [exact H1 |]); destruct (lookup a (snd cl)) eqn:L; auto.
  - eapply lookup_some_in; eauto.
  - discriminate.
  - destruct (lookup_none_notin _ _ L H2).
Qed.

Lemma filter_keep_dne (g dne l : list name) :
  (forall x, In x g -> mem x dne = false) -> incl l dne -> filter (fun x => negb (mem x g)) l = l.
Proof.
  intros Hg Hl. apply filter_all. apply forallb_forall. intros x Hx. apply negb_true_iff.
  destruct (mem x g) eqn:M; auto. apply mem_In in M. apply Hl, mem_In in Hx.
  rewrite (Hg x M) in Hx. discriminate.
Qed.

Lemma existsb_false_in {A} (f : A -> bool) l x : existsb f l = false -> In x l -> f x = false.
Proof.
  intros H Hin. destruct (f x) eqn:E; auto.
  assert (existsb f l = true) by (apply existsb_exists; eauto). congruence.
Qed.

Definition dne_of (m : model) : list name :=
  ders m ++ states m ++ inputs m ++ map fst (params m) ++ map fst (consts m).
Definition pc_of (m : model) : list name := map fst (params m) ++ map fst (consts m).

(* every member that joined its class since R0 is replaced by +- the canonical variable *)
Definition da_sub (R0 R : list acls) : sub :=
  flat_map (fun cl => map (fun '(a, n) => (a, sgn n (Sym (fst cl))))
                          (filter (fun '(a, _) => negb (old_member R0 a)) (snd cl))) R.

Lemma map_fst_da_sub R0 R :
  map fst (da_sub R0 R) = filter (fun a => negb (mem a (mnames R0))) (mnames R).
Proof.
  unfold da_sub, mnames. induction R as [| cl R IH]; [reflexivity |].
  cbn [flat_map]. rewrite map_app, filter_app, IH. f_equal.
  induction (snd cl) as [| [a n] ms IHm]; simpl; auto.
  rewrite <- old_member_mem. destruct (old_member R0 a); simpl; now rewrite IHm.
Qed.

(* `all_states` of detect_aliases *)
Lemma in_app_pull {A} (x : A) s d a r : In x (s ++ d ++ a ++ r) -> In x a \/ In x (d ++ s ++ r).
Proof. rewrite !in_app_iff. tauto. Qed.
Lemma all_declared m x :
  mem x (states m ++ ders m ++ algs m ++ inputs m ++ map fst (params m) ++ map fst (consts m)) = true ->
  declared (algs m) (dne_of m) x.
Proof. intro H. apply mem_In, in_app_pull in H. destruct H; [left | right]; now apply mem_In. Qed.

(* no KeyError is raised; under the invariant only algebraic variables go *)
Lemma detect_aliases_eq ad m R kept :
  da_loop ad (algs m) (ders m) (dne_of m) (pc_of m) (arel m) (eqs m) = (R, kept) ->
  relinv (dne_of m) R -> failed (detect_aliases ad m) = false ->
  let s := da_sub (arel m) R in
  detect_aliases ad m =
    Model (states m) (ders m) (filter (fun x => negb (mem x (map fst s))) (algs m)) (inputs m)
          (consts m) (params m) (map (subst s) kept) (map (subst s) (ieqs m)) R (ghost m)
          (warned m) (failed m)
  /\ incl (map fst s) (algs m)
  /\ (forall c, In c (cnames R) -> declared (algs m) (dne_of m) c).
Proof.
  intros E [_ [_ M1]]. unfold detect_aliases. unfold dne_of, pc_of in E. rewrite E.
  match goal with |- context [if ?c then _ else _] => destruct c eqn:B end; [simpl; discriminate |].
  intros _. cbv beta zeta. fold (da_sub (arel m) R). set (s := da_sub (arel m) R).
  assert (Decl : forall cl, In cl R -> declared (algs m) (dne_of m) (fst cl)
            /\ forall a n, In (a, n) (snd cl) -> old_member (arel m) a = false -> declared (algs m) (dne_of m) a).
  { intros cl Hcl. apply (existsb_false_in _ _ cl B) in Hcl. apply orb_false_iff in Hcl.
    destruct Hcl as [Hc Hm]. split; [apply all_declared; now apply negb_false_iff |].
    intros a n Ha Ho. apply all_declared, negb_false_iff.
    apply (existsb_false_in _ _ (a, n) Hm). apply filter_In. now rewrite Ho. }
  assert (Hdne : forall x, In x (map fst s) -> mem x (dne_of m) = false).
  { intros x Hx. apply M1. unfold s in Hx. rewrite map_fst_da_sub in Hx. now apply filter_In in Hx. }
  split; [| split].
  - assert (Ks : filter (fun x => negb (mem x (map fst s))) (states m) = states m).
    { apply (filter_keep_dne _ _ _ Hdne). apply incl_appr, incl_appl, incl_refl. }
    assert (Kd : filter (fun x => negb (mem x (map fst s))) (ders m) = ders m).
    { apply (filter_keep_dne _ _ _ Hdne). apply incl_appl, incl_refl. }
    assert (Ki : filter (fun x => negb (mem x (map fst s))) (inputs m) = inputs m).
    { apply (filter_keep_dne _ _ _ Hdne). apply incl_appr, incl_appr, incl_appl, incl_refl. }
    assert (Kp : filter (fun '(x, _) => negb (mem x (map fst s))) (params m) = params m).
    { apply filter_all, forallb_forall. intros [x v] Hx. apply negb_true_iff.
      destruct (mem x (map fst s)) eqn:M; [| reflexivity]. apply mem_In, Hdne in M.
      assert (K : In x (dne_of m)).
      { unfold dne_of. do 3 (apply in_or_app; right). apply in_or_app. left. apply in_map_iff. now exists (x, v). }
      apply mem_In in K. congruence. }
    rewrite Ks, Kd, Ki, Kp. reflexivity.
  - intros x Hx. apply mem_In. pose proof (Hdne x Hx) as Hd.
    apply in_map_iff in Hx. destruct Hx as [[a v] [<- Hx]]. apply in_flat_map in Hx.
    destruct Hx as [cl [Hcl Hx]]. apply in_map_iff in Hx. destruct Hx as [[a' n] [Ea Hx]].
    inversion Ea. subst a' v. apply filter_In in Hx. destruct Hx as [Hx Ho]. apply negb_true_iff in Ho.
    destruct (proj2 (Decl cl Hcl) a n Hx Ho) as [K | K]; [exact K | cbn [fst] in Hd; congruence].
  - intros c Hc. apply in_map_iff in Hc. destruct Hc as [cl [<- Hcl]]. now apply Decl.
Qed.

Theorem square_detect_aliases ad m :
  NoDup (algs m) -> relinv (dne_of m) (arel m) ->
  da_decl (pc_of m) (algs m) (dne_of m) (eqs m) ->
  da_nored ad (algs m) (ders m) (dne_of m) (pc_of m) (arel m) (eqs m) = true ->
  failed (detect_aliases ad m) = false ->
  let m' := detect_aliases ad m in
  (length (algs m') + length (eqs m) = length (algs m) + length (eqs m'))%nat
  /\ ders m' = ders m /\ states m' = states m /\ inputs m' = inputs m
  /\ params m' = params m /\ consts m' = consts m /\ NoDup (algs m').
Proof.
  intros ND Inv Hd Hn Hf.
  destruct (da_loop ad (algs m) (ders m) (dne_of m) (pc_of m) (arel m) (eqs m)) as [R kept] eqn:E.
  destruct (da_loop_struct _ _ _ _ _ _ _ _ _ Inv Hd E) as [_ [Inv' [Im L]]]. specialize (L Hn).
  destruct (detect_aliases_eq ad m R kept E Inv' Hf) as [-> [Hincl _]].
  cbn [algs eqs ders states inputs params consts]. rewrite map_length.
  rewrite map_fst_da_sub in *.
  pose proof (filter_notin_len (mnames (arel m)) (mnames R) (proj1 Inv') (proj1 Inv) Im) as LG.
  assert (NDg : NoDup (filter (fun a => negb (mem a (mnames (arel m)))) (mnames R))).
  { apply NoDup_filter, Inv'. }
  pose proof (filter_notin_len _ (algs m) ND NDg Hincl) as FL.
  repeat split; [lia | now apply NoDup_filter].
Qed.

Local Opaque SUBSTITUTE_LOOP_LIMIT subst_fix.
Definition sq (m m' : model) : Prop :=
  (length (ders m') + length (algs m') + length (eqs m)
   = length (ders m) + length (algs m) + length (eqs m'))%nat
  /\ ders m' = ders m /\ states m' = states m /\ inputs m' = inputs m.

Lemma sq_refl m : sq m m.
Proof. unfold sq. repeat split; auto. Qed.
Lemma sq_trans m1 m2 m3 : sq m1 m2 -> sq m2 m3 -> sq m1 m3.
Proof.
  unfold sq. intros [A [B [C D]]] [A' [B' [C' D']]].
  repeat split; try congruence. rewrite B' in *. rewrite B in *. lia.
Qed.

Lemma sq_of m m' :
  (length (algs m') + length (eqs m) = length (algs m) + length (eqs m'))%nat ->
  ders m' = ders m -> states m' = states m -> inputs m' = inputs m -> sq m m'.
Proof. intros L D S I. unfold sq. rewrite D. repeat split; auto. lia. Qed.

Lemma sq_same m m' :
  algs m' = algs m -> ders m' = ders m -> states m' = states m -> inputs m' = inputs m ->
  length (eqs m') = length (eqs m) -> NoDup (algs m) -> sq m m' /\ NoDup (algs m').
Proof. intros A D S I L ND. split; [apply sq_of; auto; now rewrite A, L | now rewrite A]. Qed.

Lemma sq_replace_exprs b m : NoDup (algs m) ->
  sq m (replace_exprs b m) /\ NoDup (algs (replace_exprs b m)).
Proof.
  unfold replace_exprs. destruct (split_simple _) as [simple defs].
  destruct defs; [destruct b | destruct (subst_fix _ _ _)]; apply sq_same; cbn [eqs]; auto using map_length.
Qed.
Lemma sq_rpv m : NoDup (algs m) ->
  sq m (replace_param_values m) /\ NoDup (algs (replace_param_values m)).
Proof.
  unfold replace_param_values. destruct (split_valued _). apply sq_same; cbn [eqs]; auto using map_length.
Qed.
Lemma sq_rcv m : failed (replace_const_values m) = false -> NoDup (algs m) ->
  sq m (replace_const_values m) /\ NoDup (algs (replace_const_values m)).
Proof.
  unfold replace_const_values. destruct (resolve_defs _) as [s conv].
  match goal with |- context [if ?c then _ else _] => destruct c end; [discriminate |].
  intros _. apply sq_same; cbn [eqs]; auto using map_length.
Qed.
Definition H_da15 (o : options) (m : model) : Prop :=
  relinv (dne_of m) (arel m) /\ da_decl (pc_of m) (algs m) (dne_of m) (eqs m)
  /\ da_nored (o_allow_der o) (algs m) (ders m) (dne_of m) (pc_of m) (arel m) (eqs m) = true.

Definition H_elim15 (o : options) (m : model) : Prop :=
  match o_elim o with Some ns => no_elim_state ns m = true | None => True end.

(* the same seven passes as `passes o`, with the hypotheses of the square bookkeeping *)
Definition passes15 (o : options) : list pass :=
  [ (o_rpe o, replace_exprs true, fun _ => True);
    (o_rce o, replace_exprs false, fun _ => True);
    (o_eca o, elim_const_assignments, fun _ => True);
    (o_rpv o, replace_param_values, fun _ => True);
    (o_rcv o, replace_const_values, fun _ => True);
    (elim_on o, elim_f o, H_elim15 o);
    (o_da o, detect_aliases (o_allow_der o), H_da15 o) ].

Lemma sq_keeps m0 b f (H : model -> Prop) :
  (forall m, H m -> NoDup (algs m) -> failed m = false -> failed (f m) = false ->
             sq m (f m) /\ NoDup (algs (f m))) ->
  pass_keeps (fun m => sq m0 m /\ NoDup (algs m)) (b, f, H).
Proof.
  intros Hp m Hm [S ND] Hf Hf'. destruct (Hp m Hm ND Hf Hf') as [S' ND'].
  split; [exact (sq_trans _ _ _ S S') | exact ND'].
Qed.

Lemma passes15_sq o m0 : Forall (pass_keeps (fun m => sq m0 m /\ NoDup (algs m))) (passes15 o).
Proof.
  unfold passes15. repeat (apply Forall_cons; [apply sq_keeps |]); [| | | | | | | apply Forall_nil].
  - intros m _ ND _ _. now apply sq_replace_exprs.
  - intros m _ ND _ _. now apply sq_replace_exprs.
  - intros m _ ND _ _. destruct (square_elim_const_assignments m ND) as [S1 [S2 [S3 [S4 N]]]].
    split; [now apply sq_of | exact N].
  - intros m _ ND _ _. now apply sq_rpv.
  - intros m _ ND _ Hf. now apply sq_rcv.
  - intros m Hn ND Hf Hf'. unfold elim_f, H_elim15 in *.
    destruct (o_elim o) as [ns |]; [| split; [apply sq_refl | exact ND]]. rewrite Hn in *.
    destruct (o_expand_mx o); [| discriminate].
    destruct (square_eliminate_vars ns m ND Hf') as [S1 [S2 [S3 [S4 [_ [_ N]]]]]].
    split; [now apply sq_of | exact N].
  - intros m [H1 [H2 H3]] ND _ Hf.
    destruct (square_detect_aliases _ m ND H1 H2 H3 Hf) as [S1 [S2 [S3 [S4 [_ [_ N]]]]]].
    split; [now apply sq_of | exact N].
Qed.

Theorem simplify_once_square o m :
  run_ok (passes15 o) m -> NoDup (algs m) -> failed (simplify_once o m) = false ->
  sq m (simplify_once o m) /\ NoDup (algs (simplify_once o m)).
Proof.
  intros Hok ND. rewrite (simplify_once_run o m : _ = run (passes15 o) m).
  apply (run_keeps _ _ (passes15_sq o m) m Hok). split; [apply sq_refl | exact ND].
Qed.

(* relinv is asked for at every outer iteration: that one iteration hands it to the next is not
   proved *)
Fixpoint loop_ok15 (fuel : nat) (o : options) (left : nat) (m : model) : Prop :=
  match fuel with
  | O => True
  | S f =>
      run_ok (passes15 o) m /\
      let m' := simplify_once o m in
      if failed m' then True
      else if o_iter o && negb (Nat.eqb left (length (algs m')))
           then loop_ok15 f o (length (algs m')) m' else True
  end.

Theorem simplify_loop_square o : forall fuel left m,
  loop_ok15 fuel o left m -> NoDup (algs m) -> failed (simplify_loop fuel o left m) = false ->
  sq m (simplify_loop fuel o left m).
Proof.
  induction fuel as [| f IH]; simpl; intros left m Hok ND Hf; [apply sq_refl |].
  destruct Hok as [H1 H2].
  destruct (failed (simplify_once o m)) eqn:Fm; [congruence |].
  destruct (simplify_once_square o m H1 ND Fm) as [S1 N1].
  destruct (o_iter o && negb (Nat.eqb left (length (algs (simplify_once o m))))); auto.
  eapply sq_trans; [exact S1 | apply IH; auto].
Qed.

Theorem simplify_square o m :
  loop_ok15 SIMPLIFICATION_LOOP_LIMIT o 0%nat m -> NoDup (algs m) -> failed (simplify o m) = false ->
  sq m (simplify o m).
Proof. apply simplify_loop_square. Qed.
