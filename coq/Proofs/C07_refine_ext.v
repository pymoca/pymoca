(* Proofs/C07_refine_ext.v — libraries whose classes are all defined at the top level: what lookup finds in them,
   and that pymoca's definition-order rule cannot fire there (the model with the rule — late = true, the real
   code — and without it compute the same flat class).  Their refinement: Proofs/C07_refine_pkg.v. *)
From Coq Require Import List ZArith Bool PArith Lia.
From PV Require Import Lib.ClassTree Lib.Inst Model.C07_flatten Proofs.C07_flatten Proofs.C07_refine Proofs.C07_lex.
Import ListNotations.

(* a class without nested classes, whose extends clauses carry no modifiers and name no built-in type *)
Inductive eplain : cdef -> Prop :=
| EPlain n k exts ss es :
    k <> kBuiltin -> k <> kType ->
    Forall (fun e : path * list marg => snd e = [] /\ mem_id (head_id (fst e)) BUILTIN = false) exts ->
    Forall plain_sym ss ->
    eplain (CDef n k [] exts ss es).

Definition eclass (c : cdef) : Prop := eplain c \/ alias c.
Definition rsc (root : list cdef) : scope := lex_scope root [].

Lemma eplain_kind c : eplain c -> c_kind c <> kBuiltin /\ c_kind c <> kType.
Proof. inversion 1; simpl; auto. Qed.

Lemma eplain_not_builtin c : eplain c -> Pos.eqb (c_kind c) kBuiltin = false.
Proof. intros H. exact (proj2 (Pos.eqb_neq _ _) (proj1 (eplain_kind c H))). Qed.

Lemma eclass_no_classes c : eclass c -> c_classes c = [].
Proof. intros [H|H]; inversion H; reflexivity. Qed.

Lemma lookup_empty fr S ref : f_entries fr = [] -> lookup (fr :: S) ref = lookup S ref.
Proof.
  intros E. destruct ref as [|n rest]; [destruct S; reflexivity|]. cbn [lookup]. rewrite E. reflexivity.
Qed.

Lemma located_toplevel root d dlex : Forall eclass root -> located root d dlex -> dlex = [] /\ In d root.
Proof.
  intros Hroot [cs [N G]]. destruct dlex as [|n p].
  - cbn [nav] in N. inversion N; subst. split; [reflexivity|]. exact (od_get_In _ _ _ _ _ G).
  - exfalso. cbn [nav] in N. destruct (od_get c_name Pos.eqb n root) as [c0|] eqn:G0; [|discriminate N].
    assert (c_classes c0 = []) as E
      by (apply eclass_no_classes; apply (proj1 (Forall_forall _ _) Hroot c0 (od_get_In _ _ _ _ _ G0))).
    rewrite E in N. destruct p as [|m p]; cbn [nav od_get] in N; [|discriminate N].
    inversion N; subst. discriminate G.
Qed.

Lemma lookup_rsc root ref c lex S' b :
  Forall eclass root -> lookup (rsc root) ref = Some (c, lex, S', b) ->
  eclass c /\ lex = [] /\ S' = rsc root /\ In c root.
Proof.
  intros Hroot H. destruct (lookup_root root _ _ _ _ _ H) as [Hl [-> _]].
  destruct (located_toplevel root c lex Hroot Hl) as [-> Hin].
  repeat split; [exact (proj1 (Forall_forall _ _) Hroot c Hin) | exact Hin].
Qed.

(* every extends clause of a class of the library names a class (not a type alias) of the library *)
Definition root_lib (root : list cdef) : Prop :=
  Forall eclass root /\
  (forall c e bc l S b, In c root -> eplain c -> In e (c_exts c) ->
                        lookup (rsc root) (fst e) = Some (bc, l, S, b) -> eplain bc).

Definition bases_ok (root : list cdef) : bool :=
  forallb (fun c => forallb (fun e : path * list marg =>
                               match lookup (rsc root) (fst e) with
                               | Some (bc, _, _, _) => negb (Pos.eqb (c_kind bc) kType)
                               | None => true
                               end) (c_exts c)) root.

Lemma root_lib_intro root : Forall eclass root -> bases_ok root = true -> root_lib root.
Proof.
  intros He Hb. split; [exact He|]. intros c e bc l S b Hin _ Hine L.
  destruct (lookup_rsc root _ _ _ _ _ He L) as [[Hp|Hal] _]; [exact Hp | exfalso].
  pose proof (proj1 (forallb_forall _ _) (proj1 (forallb_forall _ _) Hb c Hin) e Hine) as K.
  cbv beta in K. rewrite L in K. destruct Hal. discriminate K.
Qed.

Lemma od_index_some n : forall es k e, od_get e_key Pos.eqb n es = Some e -> exists j, od_index n es k = Some j.
Proof.
  induction es as [|x es IH]; intros k e H; [discriminate H|]. cbn [od_get od_index] in *.
  destruct (Pos.eqb (e_key x) n); [eexists; reflexivity | eapply IH; exact H].
Qed.

Lemma ilookup_quiet root : forall S ref,
  Forall (fun fr => f_inst fr = false \/ f_entries fr = []) S -> ilookup root S ref = lookup S ref.
Proof.
  induction S as [|fr S IH]; intros ref H; destruct ref as [|n rest]; try reflexivity.
  inversion H as [|? ? Hfr HS]; subst. cbn [ilookup lookup]. rewrite !(IH _ HS).
  destruct (od_get e_key Pos.eqb n (f_entries fr)) as [e|] eqn:E; [|reflexivity].
  destruct (od_index_some n _ 0 e E) as [j ->].
  destruct (descend (e_def e) (e_lex e) rest) as [[c lex]|]; [|reflexivity].
  destruct Hfr as [-> | E0]; [reflexivity | rewrite E0 in E; discriminate E].
Qed.

Lemma mlookup_empty root late fr t :
  f_entries fr = [] -> mlookup root late (fr :: rsc root) t = lookup (fr :: rsc root) t.
Proof.
  intros E. destruct late; [|reflexivity]. apply ilookup_quiet.
  constructor; [right; exact E | constructor; [left; reflexivity | constructor]].
Qed.

Lemma build_syms_late root recT recF ebi me myref :
  (forall t, mlookup root true me t = lookup me t) ->
  (forall t tc tlex tparent b, lookup me t = Some (tc, tlex, tparent, b) ->
     forall m0 m1, recT tc tlex tparent m0 m1 = recF tc tlex tparent m0 m1) ->
  forall ss menv extra acc,
    build_syms root true recT ebi me myref ss menv extra acc =
    build_syms root false recF ebi me myref ss menv extra acc.
Proof.
  intros HL HR. induction ss as [|s ss IH]; intros menv extra acc; [reflexivity|].
  cbn [build_syms]. destruct (mem_id (head_id (s_type s)) BUILTIN); [apply IH|].
  rewrite HL. cbn [mlookup].
  destruct (lookup me (s_type s)) as [[[[tc tlex] tparent] b]|] eqn:L; [|reflexivity].
  apply bind_ext; intros ib. apply bind_ext; intros sm0. apply bind_ext; intros sm1.
  destruct b; rewrite (HR _ _ _ _ _ L); apply bind_ext; intros i; apply IH.
Qed.

Section Late.
  Variable root : list cdef.
  Hypothesis Hroot : Forall eclass root.

  Definition known (c : cdef) : Prop := In c root \/ exists t, c = builtin_class t.

  Lemma known_no_classes c : known c -> c_classes c = [].
  Proof.
    intros [H|[t ->]]; [apply eclass_no_classes; exact (proj1 (Forall_forall _ _) Hroot c H) | reflexivity].
  Qed.

  Lemma find_base_known c ref bc blex :
    known c -> find_base root c [] ref = Ok (bc, blex) -> known bc /\ blex = [].
  Proof.
    intros Hc H. unfold find_base in H.
    destruct (mem_id (head_id ref) BUILTIN).
    - inversion H; subst. split; [right; eexists; reflexivity | reflexivity].
    - change (lex_scope root []) with (rsc root) in H.
      rewrite lookup_empty in H by (unfold own_frame; cbn [f_entries]; rewrite (known_no_classes c Hc); reflexivity).
      destruct (lookup (rsc root) ref) as [[[[c' lex'] S'] b]|] eqn:L; [|discriminate H].
      inversion H; subst. destruct (lookup_rsc root _ _ _ _ _ Hroot L) as [_ [Hlex [_ Hin]]].
      split; [left; exact Hin | exact Hlex].
  Qed.

  Lemma fe_classes : forall n c menv x,
    known c -> flatten_extends root n c [] menv = Ok x -> x_classes x = [].
  Proof.
    induction n as [|f IH]; intros c menv x Hc H; [discriminate H|].
    rewrite flatten_extends_S in H.
    destruct (fold_left (ext_step root f c []) (c_exts c) (Ok (mkExt (c_kind c) [] [] [] []))) as [x0|err] eqn:EF;
      cbn [bind] in H; [|discriminate H].
    assert (x_classes x0 = []) as K0.
    { apply (fold_ext_inv root f c [] (fun a => x_classes a = []) (c_exts c)) with (a := mkExt (c_kind c) [] [] [] []);
        [|reflexivity|exact EF].
      intros e a a' _ Ka HM.
      destruct (ext_step_ok root f c [] a e a' HM) as (bc & blex & rb & FB & EB & ->).
      destruct (find_base_known c (fst e) bc blex Hc FB) as [Hb ->].
      cbn [x_classes]. rewrite Ka, (IH bc (snd e) rb Hb EB). reflexivity. }
    unfold ext_finish in H. rewrite (known_no_classes c Hc) in H. cbn [entries_of map x_kind x_classes x_syms x_eqs x_menv] in H.
    rewrite K0 in H.
    destruct (Pos.eqb (x_kind x0) kBuiltin); inversion H; reflexivity.
  Qed.

  Lemma build_late : forall n c m0 m1,
    In c root ->
    build root true n c [] (rsc root) m0 m1 = build root false n c [] (rsc root) m0 m1.
  Proof.
    induction n as [|f IH]; intros c m0 m1 Hin; [reflexivity|].
    cbn [build].
    destruct (flatten_extends root f c [] m0) as [x0|err] eqn:EF; cbn [bind]; [|reflexivity].
    pose proof (fe_classes f c m0 x0 (or_introl Hin) EF) as K0.
    destruct (negb (forallb _ _)); [reflexivity|].
    assert (x_classes (if Pos.eqb (x_kind x0) kBuiltin
                       then mkExt (x_kind x0) (x_classes x0) (map (add_value_mods m1) (x_syms x0)) (x_eqs x0) (x_menv x0)
                       else x0) = []) as K1 by (destruct (Pos.eqb (x_kind x0) kBuiltin); exact K0).
    rewrite K1.
    rewrite (build_syms_late root (build root true f) (build root false f) (extends_builtin root f)); [reflexivity| |].
    - intros t. apply mlookup_empty. reflexivity.
    - intros t tc tlex tparent b L m0' m1'.
      rewrite lookup_empty in L by reflexivity.
      destruct (lookup_rsc root _ _ _ _ _ Hroot L) as [_ [-> [-> Hin']]]. apply IH. exact Hin'.
  Qed.

  Theorem flatten_late top : flatten root true top = flatten root false top.
  Proof.
    unfold flatten. destruct (lookup (lex_scope root []) top) as [[[[c lex] parent] b]|] eqn:L; [|reflexivity].
    destruct (lookup_rsc root _ _ _ _ _ Hroot L) as [_ [-> [-> Hin]]].
    rewrite (build_late FUEL c [] [] Hin). reflexivity.
  Qed.
End Late.
