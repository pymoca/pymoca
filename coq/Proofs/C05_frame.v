(* C05 — proofs about Model/C05_frame.v. *)
From Coq Require Import List Arith Bool.
From PV Require Import Lib.ObjGraph Model.C06_deepcopy Proofs.C06_deepcopy Model.C05_frame.
Import ListNotations.

Definition memo_sound (t : tree) (xm : xmap) : Prop :=
  forall p k q, kassoc k (memo (xget xm p)) = Some q -> star_search t (stars (xget xm p)) k None = Some q.

Lemma star_search_exists t : forall pkgs k acc q,
  star_search t pkgs k acc = Some q -> acc = Some q \/ exists_cls t q = true.
Proof.
  induction pkgs as [|pk pkgs IH]; cbn [star_search]; intros k acc q H; [left; exact H|].
  apply IH in H. destruct H as [H|H]; [|right; exact H].
  destruct (exists_cls t (pk ++ [k])) eqn:E; [|left; exact H].
  injection H as <-. right. exact E.
Qed.

(* the search without any memo *)
Fixpoint find0 (sd : bool) (t : tree) (st : path -> list path) (rp : list key) (k : key) (ks : list key) : option path :=
  let p := rev rp in
  if exists_cls t (p ++ k :: ks) then Some (p ++ k :: ks)
  else
    let up := match rp with [] => None | _ :: rp' => find0 sd t st rp' k ks end in
    match star_search t (st p) k None with
    | Some q => if sd then (if exists_cls t (q ++ ks) then Some (q ++ ks) else up) else Some q
    | None => up
    end.

(* the memo only caches what the un-memoised search returns (induction on the climb): for every name
   when the unqualified-import stage descends (sd = true), and for simple names in any case *)
Lemma find_memo_eq sd t xm ks : memo_sound t xm -> sd = true \/ ks = [] ->
  forall rp k, find sd t xm rp k ks = find0 sd t (fun p => stars (xget xm p)) rp k ks.
Proof.
  intros Hs Hc.
  (* what the unqualified-import stage answers; a sound memo entry answers the same *)
  set (star := fun p k up => match star_search t (stars (xget xm p)) k None with
                             | Some q => if sd then (if exists_cls t (q ++ ks) then Some (q ++ ks) else up) else Some q
                             | None => up end).
  assert (Hstage : forall p k up,
    match kassoc k (memo (xget xm p)) with
    | Some q => if exists_cls t (q ++ ks) then Some (q ++ ks) else up
    | None => star p k up
    end = star p k up).
  { intros p k up. unfold star. destruct (kassoc k (memo (xget xm p))) as [q|] eqn:M; [|reflexivity].
    pose proof (Hs _ _ _ M) as S. rewrite S. destruct Hc as [->| ->]; [reflexivity|].
    destruct sd; [reflexivity|]. rewrite app_nil_r.
    destruct (star_search_exists _ _ _ _ _ S) as [E|E]; [discriminate|]. rewrite E. reflexivity. }
  induction rp as [|x rp IH]; intros k; cbn [find find0].
  - destruct (exists_cls t (rev [] ++ k :: ks)); [reflexivity|]. apply Hstage.
  - destruct (exists_cls t (rev (x :: rp) ++ k :: ks)); [reflexivity|]. rewrite IH. apply Hstage.
Qed.

Lemma find0_ext sd t st1 st2 : (forall p, st1 p = st2 p) -> forall rp k ks, find0 sd t st1 rp k ks = find0 sd t st2 rp k ks.
Proof.
  intros H. induction rp as [|x rp IH]; intros k ks; cbn [find0]; rewrite H; [reflexivity|].
  rewrite IH. reflexivity.
Qed.

Lemma xget_xset xm p e q : xget (xset xm p e) q = if path_dec q p then e else xget xm q.
Proof. unfold xget, xset. cbn [assoc]. destruct (path_dec q p); reflexivity. Qed.

Definition sound_same_obs (t : tree) (xm xm' : xmap) : Prop :=
  memo_sound t xm' /\ (forall p, stars (xget xm' p) = stars (xget xm p)) /\
  (forall p s, const_eff xm' p s = const_eff xm p s).

Lemma xset_obs t xm p e : memo_sound t xm ->
  stars e = stars (xget xm p) ->
  (forall k q, kassoc k (memo e) = Some q ->
     kassoc k (memo (xget xm p)) = Some q \/ star_search t (stars (xget xm p)) k None = Some q) ->
  (forall s, option_map eff (kassoc s (consts e)) = option_map eff (kassoc s (consts (xget xm p)))) ->
  sound_same_obs t xm (xset xm p e).
Proof.
  intros Hs Est Hm Hc.
  assert (Hst : forall p', stars (xget (xset xm p e) p') = stars (xget xm p')).
  { intros p'. rewrite xget_xset. destruct (path_dec p' p) as [->|]; [exact Est|reflexivity]. }
  split; [|split; [exact Hst|]].
  - intros p' k q M. rewrite Hst. rewrite xget_xset in M. destruct (path_dec p' p) as [->|]; [|auto].
    destruct (Hm _ _ M); auto.
  - intros p' s. unfold const_eff. rewrite xget_xset. destruct (path_dec p' p) as [->|]; [|reflexivity].
    specialize (Hc s). destruct (kassoc s (consts e)), (kassoc s (consts (xget xm p))); cbn in Hc; congruence.
Qed.

Lemma nstep_obs t xm xm' : nstep t xm xm' -> memo_sound t xm -> sound_same_obs t xm xm'.
Proof.
  intros [xm0 p k q S|xm0 p s c nm C|xm0 p] Hs; apply xset_obs; cbn [stars memo consts]; auto.
  - intros k' q'. cbn [kassoc]. destruct (Nat.eqb k' k) eqn:E; [|auto].
    apply Nat.eqb_eq in E. subst k'. intros M. injection M as <-. right. exact S.
  - intros s'. cbn [kassoc]. destruct (Nat.eqb s' s) eqn:E; [|reflexivity].
    apply Nat.eqb_eq in E. subst s'. rewrite C. reflexivity.
Qed.

Lemma nstar_obs t xm xm' : nstar t xm xm' -> memo_sound t xm -> sound_same_obs t xm xm'.
Proof.
  induction 1 as [xm|xm1 xm2 xm3 H1 H2 IH]; intros Hs; [repeat split; auto|].
  destruct (nstep_obs _ _ _ H1 Hs) as (Hs2 & St2 & C2).
  destruct (IH Hs2) as (Hs3 & St3 & C3). split; [exact Hs3|]. split.
  - intros p. rewrite St3. apply St2.
  - intros p s. rewrite C3. apply C2.
Qed.

Lemma nstar_trans t a b c : nstar t a b -> nstar t b c -> nstar t a c.
Proof.
  induction 1 as [|xm1 xm2 xm3 Hstep _ IH]; intros Hbc; [exact Hbc|exact (nstar_step _ _ _ _ Hstep (IH Hbc))].
Qed.

(* the programs covered: every lookup when sd = true; only simple-name lookups when sd = false *)
Inductive okprog {R} (sd : bool) : prog R -> Prop :=
| ok_ret r : okprog sd (Ret r)
| ok_find rp k ks c : sd = true \/ ks = [] -> (forall x, okprog sd (c x)) -> okprog sd (AskFind rp k ks c)
| ok_const p s c : (forall x, okprog sd (c x)) -> okprog sd (AskConst p s c)
| ok_data p c : (forall x, okprog sd (c x)) -> okprog sd (AskData p c).

Lemma okprog_true {R} : forall pr : prog R, okprog true pr.
Proof. induction pr; constructor; auto. Qed.

(* no request can tell the difference *)
Lemma exec_neutral {R} sd t xm xm' : memo_sound t xm -> nstar t xm xm' ->
  forall pr : prog R, okprog sd pr -> exec sd pr t xm' = exec sd pr t xm.
Proof.
  intros Hs Hn. destruct (nstar_obs _ _ _ Hn Hs) as (Hs' & St & Ce).
  induction 1 as [r|rp k ks c Hc Hk IH|p s c Hk IH|p c Hk IH]; cbn [exec]; auto.
  - rewrite IH. f_equal. f_equal.
    rewrite (find_memo_eq _ _ _ _ Hs' Hc), (find_memo_eq _ _ _ _ Hs Hc). apply find0_ext. exact St.
  - rewrite IH, Ce. reflexivity.
Qed.

(* with sd = false the memo IS visible to dotted lookups (the defect repaired by C05_import_dotted.diff) *)
Definition exd_tree : tree :=
  [ ([], Info (CD [] 0) None None); ([1], Info (CD [] 0) (Some (0, [])) None);
    ([1; 2], Info (CD [] 0) (Some (0, [1])) None); ([1; 2; 3], Info (CD [] 0) (Some (0, [1; 2])) None);
    ([5], Info (CD [] 0) (Some (0, [])) None) ].
Definition exd_xm0 : xmap := [ ([5], Ext [[1]] [] [] false) ].
Definition exd_xm1 : xmap := xset exd_xm0 [5] (Ext [[1]] [(2, [1; 2])] [] false).

Lemma footprint_refl w a : footprint w a w.
Proof. split; [apply le_n|]. intros ti t1 H. exists t1. repeat split; auto. Qed.

Lemma footprint_other w1 a w2 j t :
  footprint w1 a w2 -> nth_error w1 j = Some t -> j <> fst a -> nth_error w2 j = Some t.
Proof. intros (_ & H) Hj N. destruct (H _ _ Hj) as (t2 & E & Hs & _). rewrite E, (Hs N). reflexivity. Qed.

Section Frame.
  Variable R : Type.
  (* the program flatten/generate runs for class p: arbitrary but for prog_ok *)
  Variable prog_of : path -> prog R.
  (* the unqualified-import stage as coded (read from ast.py on every run) *)
  Variable sd : bool.
  (* vacuous when sd = true: okprog_true *)
  Hypothesis prog_ok : forall p, okprog sd (prog_of p).

  Definition state : Type := world * xmap.

  (* one request on the state (live trees, neutral fields of the parsed tree) *)
  Definition fstep (cp : bool) (st : state) (p : path) (st' : state) (r : R) : Prop :=
    exists t0, nth_error (fst st) 0 = Some t0 /\ r = exec sd (prog_of p) t0 (snd st) /\
      nstar t0 (snd st) (snd st') /\
      match lookup cp (fst st) p with
      | None => fst st' = fst st
      | Some (w1, a) => footprint w1 a (fst st')
      end.

  Inductive fseq (cp : bool) : state -> list path -> state -> list R -> Prop :=
  | fseq_nil st : fseq cp st [] st []
  | fseq_cons st p st1 r ps st2 rs :
      fstep cp st p st1 r -> fseq cp st1 ps st2 rs -> fseq cp st (p :: ps) st2 (r :: rs).

  Lemma lookup_true_shape w p w1 a :
    lookup true w p = Some (w1, a) -> (exists c, w1 = w ++ [c]) /\ a = (length w, []).
  Proof.
    unfold lookup. destruct (get w (0, p)); [|discriminate].
    destruct (deepcopy fixed_flags w (0, p)) as [w'|] eqn:E; [|discriminate].
    intros H. injection H as <- <-. split; auto. eapply deepcopy_frame; eauto.
  Qed.

  (* frame: with copy-on-lookup a request leaves the parsed tree EXACTLY as it was; only the
     neutral fields move, by the three exact writes (the first and last conjunct are components of fstep) *)
  Lemma frame st p st' r t0 :
    nth_error (fst st) 0 = Some t0 -> fstep true st p st' r ->
    r = exec sd (prog_of p) t0 (snd st) /\ nth_error (fst st') 0 = Some t0 /\ nstar t0 (snd st) (snd st').
  Proof.
    destruct st as [w xm], st' as [w' xm']. unfold fstep. cbn [fst snd].
    intros Ht (t & Ht' & Hr & Hn & H). rewrite Ht in Ht'. injection Ht' as <-.
    split; [exact Hr|]. split; [|exact Hn].
    destruct (lookup true w p) as [[w1 a]|] eqn:L; [|rewrite H; exact Ht].
    (* the looked-up class is the root of a new tree, so tree 0 is outside the footprint *)
    destruct (lookup_true_shape _ _ _ _ L) as ((c & ->) & ->).
    destruct w as [|t' w]; [discriminate Ht|].
    apply (footprint_other _ _ _ 0 t0 H); [exact Ht|discriminate].
  Qed.

  (* sequences: every request of any sequence gives what it gives on the initial state *)
  Lemma sequences_gen : forall ps st st' rs, fseq true st ps st' rs ->
    forall t0 xm0, nth_error (fst st) 0 = Some t0 -> memo_sound t0 xm0 -> nstar t0 xm0 (snd st) ->
    rs = map (fun p => exec sd (prog_of p) t0 xm0) ps.
  Proof.
    induction 1 as [st|st p st1 r ps st2 rs Hstep Hseq IH]; intros t0 xm0 Ht Hs Hn; [reflexivity|].
    destruct (frame _ _ _ _ _ Ht Hstep) as (-> & Ht' & Hn').
    cbn [map]. f_equal.
    - apply exec_neutral; auto.
    - eapply IH; eauto. eapply nstar_trans; eauto.
  Qed.
  Lemma sequences ps st st' rs t0 :
    nth_error (fst st) 0 = Some t0 -> memo_sound t0 (snd st) -> fseq true st ps st' rs ->
    rs = map (fun p => exec sd (prog_of p) t0 (snd st)) ps.
  Proof. intros Ht Hs Hseq. exact (sequences_gen ps st st' rs Hseq t0 (snd st) Ht Hs (nstar_refl _ _)). Qed.
End Frame.

(* without copy-on-lookup (tree.py before bc8343b) the property fails *)
Definition ex5_tree : tree :=
  [ ([], Info (CD [] 0) None None); ([1], Info (CD [4] 1) (Some (0, [])) None) ].
Definition ex5_tree' : tree :=
  [ ([], Info (CD [] 0) None None); ([1], Info (CD [] 1) (Some (0, [])) None) ].
Definition ex5_prog (p : path) : prog (option cdata) := AskData p Ret.

Lemma ex5_footprint : footprint [ex5_tree] (0, [1]) [ex5_tree'].
Proof.
  split; [apply le_n|]. intros [|ti] t1 H; [|destruct ti; discriminate H].
  injection H as <-. exists ex5_tree'. split; [reflexivity|]. split; [intros N; exfalso; apply N; reflexivity|].
  intros q Hq. cbn [snd] in Hq. unfold ex5_tree, ex5_tree'. cbn [assoc].
  destruct (path_dec q _); [reflexivity|]. destruct (path_dec q _) as [->|]; [discriminate Hq|reflexivity].
Qed.

(* a fresh parse has empty memos *)
Lemma fresh_sound t xm : (forall p, memo (xget xm p) = []) -> memo_sound t xm.
Proof. intros H p k q M. rewrite H in M. discriminate M. Qed.
