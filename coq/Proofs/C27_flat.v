(* C27 — the flattening model consults the tree only through lookups: Section FlatG once more, with the
   lookup g replaced by an extensionally equal g'. *)
From Coq Require Import List Bool PArith Arith.
From PV Require Import Model.C27_merge Model.C27_flat Proofs.C27_merge.
Import ListNotations.

Section Ext.
  Variable E : denv.
  Variables g g' : path -> option hdr.
  Hypothesis Hg : forall p, g p = g' p.

  Lemma toks_ext p i : toks g p i = toks g' p i.
  Proof. unfold toks. rewrite Hg. reflexivity. Qed.
  Lemma encaps_ext p : encaps g p = encaps g' p.
  Proof. unfold encaps. rewrite Hg. reflexivity. Qed.
  Lemma present_ext p : present g p = present g' p.
  Proof. unfold present. rewrite Hg. reflexivity. Qed.
  Lemma imports_ext p : imports_of E g p = imports_of E g' p.
  Proof. unfold imports_of. rewrite toks_ext. reflexivity. Qed.
  Lemma own_exts_ext p : own_exts E g p = own_exts E g' p.
  Proof. unfold own_exts. rewrite toks_ext. reflexivity. Qed.
  Lemma own_syms_ext p : own_syms E g p = own_syms E g' p.
  Proof. unfold own_syms. rewrite toks_ext. reflexivity. Qed.
  Lemma eq_refs_ext p : eq_refs E g p = eq_refs E g' p.
  Proof. unfold eq_refs. rewrite !toks_ext. reflexivity. Qed.

  Lemma fc_step_ext rec rec' :
    (forall a b c d, rec a b c d = rec' a b c d) ->
    forall scope ref sp si, fc_step E g rec scope ref sp si = fc_step E g' rec' scope ref sp si.
  Proof.
    intros Hr scope ref sp si. unfold fc_step. destruct ref as [|n rest]; [reflexivity|].
    cbv zeta. rewrite present_ext, imports_ext, encaps_ext.
    rewrite (Hr (scope ++ [n]) rest false true), (Hr (removelast scope) (n :: rest) true true).
    destruct (imp_lookup n (imports_of E g' scope)) as [T|]; [rewrite (Hr scope (T ++ rest) true true)|]; reflexivity.
  Qed.

  Lemma find_class_ext fuel : forall scope ref sp si,
    find_class E g fuel scope ref sp si = find_class E g' fuel scope ref sp si.
  Proof.
    induction fuel as [|f IH]; intros scope ref sp si; [reflexivity|].
    simpl. apply fc_step_ext. exact IH.
  Qed.

  Lemma ext_fold_ext rec rec' fc fc' C :
    (forall x, rec x = rec' x) -> (forall x, fc x = fc' x) ->
    forall es acc, ext_fold rec fc C es acc = ext_fold rec' fc' C es acc.
  Proof.
    intros Hr Hf. induction es as [|[b m] es IH]; intros acc; cbn [ext_fold]; [reflexivity|].
    rewrite Hf. destruct (fc' b) as [B|]; [|reflexivity].
    destruct (path_eqb B C); [reflexivity|].
    rewrite Hr. destruct (rec' B) as [[sb rb]|]; [apply IH | reflexivity].
  Qed.

  Lemma ext_content_ext fuel : forall C, ext_content E g fuel C = ext_content E g' fuel C.
  Proof.
    induction fuel as [|f IH]; intros C; [reflexivity|].
    cbn [ext_content]. rewrite own_exts_ext, own_syms_ext, eq_refs_ext.
    rewrite (ext_fold_ext _ _ _ _ C IH (fun b => find_class_ext FC_FUEL C b true true)).
    reflexivity.
  Qed.

  Lemma const_in_ext rest : forall N, const_in E g N rest = const_in E g' N rest.
  Proof.
    induction rest as [|x more IH]; intros N; [reflexivity|].
    cbn [const_in]. rewrite own_syms_ext, find_class_ext.
    destruct (is_nil more); [reflexivity|].
    destruct (find_class E g' FC_FUEL N [x] false true); [apply IH | reflexivity].
  Qed.

  Lemma find_const_ext C r : find_const E g C r = find_const E g' C r.
  Proof.
    unfold find_const. destruct r as [|t0 rest]; [reflexivity|].
    destruct (is_nil rest); [reflexivity|].
    rewrite find_class_ext. destruct (find_class E g' FC_FUEL C [t0] true true); [apply const_in_ext | reflexivity].
  Qed.

  Lemma pulled_ext C prefix refs : pulled E g C prefix refs = pulled E g' C prefix refs.
  Proof.
    unfold pulled. apply flat_map_ext. intros r. now rewrite find_const_ext.
  Qed.

  Lemma inst_syms_ext rec rec' fc fc' prefix :
    (forall a b c, rec a b c = rec' a b c) -> (forall x, fc x = fc' x) ->
    forall ss, inst_syms rec fc prefix ss = inst_syms rec' fc' prefix ss.
  Proof.
    intros Hr Hf. induction ss as [|s ss IH]; cbn [inst_syms]; [reflexivity|].
    rewrite IH, Hf. destruct (sy_builtin s); [reflexivity|].
    destruct (fc' (sy_type s)); [rewrite Hr; reflexivity | reflexivity].
  Qed.

  Lemma inst_ext fuel : forall C prefix inm, inst E g fuel C prefix inm = inst E g' fuel C prefix inm.
  Proof.
    induction fuel as [|f IH]; intros C prefix inm; [reflexivity|].
    cbn [inst]. rewrite ext_content_ext. destruct (ext_content E g' EXT_FUEL C) as [[syms refs]|]; [|reflexivity].
    rewrite (inst_syms_ext _ _ _ _ prefix IH (fun t => find_class_ext FC_FUEL C t true true)).
    rewrite imports_ext, pulled_ext. reflexivity.
  Qed.

  Lemma flatG_ext top : flatG E g top = flatG E g' top.
  Proof.
    unfold flatG. rewrite find_class_ext. destruct (find_class E g' FC_FUEL [] top true true); [apply inst_ext | reflexivity].
  Qed.
End Ext.

(* P with constant k in one file, `within P; model M  Real x = P.k;` in another (the parser makes `= P.k` a
   modification, parser.py:713) *)
Definition fx_E : denv :=
  DEnv [(21, SymI 40 [50] true [] []); (24, SymI 41 [50] true [] [[10; 40]])]%positive [] [] [].
Definition fx_f0 : file := ([], [(10, Node (ex_h 1 [21] []) [])])%positive.
Definition fx_f1 : file := ([10], [(12, Node (ex_h 3 [24] []) [])])%positive.
