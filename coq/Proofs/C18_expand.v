(* C18 — proofs about Model/C18_expand.v.  The naming part rests on one idea: a decimal numeral is delimited by
   the non-digit that follows it, so the rendered name determines the index tuple.  Section Residual is an
   element-level version of the residual statement of Proofs/C18_residual.v.  stdlib only. *)
From Coq Require Import String Ascii List Arith ZArith Bool Lia DecimalString DecimalNat FinFun.
From PV Require Import Model.C18_expand.
Import ListNotations.
Open Scope nat_scope.
Open Scope list_scope.

Notation "a +++ b" := (String.append a b) (at level 60, right associativity).

Lemma ndindex_In dims : forall idx, In idx (ndindex dims) <-> Forall2 lt idx dims.
Proof.
  induction dims as [|d r IH]; intros idx; cbn [ndindex].
  - split.
    + intros [<-|[]]. constructor.
    + intros H. inversion H. now left.
  - rewrite in_flat_map. split.
    + intros (i & Hi & Hin). apply in_seq in Hi. apply in_map_iff in Hin as (t & <- & Ht).
      constructor; [lia|]. now apply IH.
    + intros H. inversion H as [|i d' t r' Hlt Ht]; subst.
      exists i. split; [apply in_seq; lia|]. apply in_map. now apply IH.
Qed.

Lemma NoDup_app {A} (l1 l2 : list A) :
  NoDup l1 -> NoDup l2 -> (forall x, In x l1 -> ~ In x l2) -> NoDup (l1 ++ l2).
Proof.
  induction l1 as [|a l1 IH]; intros H1 H2 Hd; cbn; auto.
  inversion H1; subst. constructor.
  - rewrite in_app_iff. intros [?|?]; [contradiction|]. eapply Hd; [now left|eauto].
  - apply IH; auto. intros x Hx. apply Hd. now right.
Qed.

Lemma ndindex_NoDup dims : NoDup (ndindex dims).
Proof.
  induction dims as [|d r IH]; cbn [ndindex].
  - repeat constructor. intros [].
  - generalize 0 as s. induction d as [|d IHd]; intros s; cbn [seq flat_map]; [constructor|].
    apply NoDup_app.
    + apply Injective_map_NoDup; auto. intros x y H; now inversion H.
    + apply IHd.
    + intros x Hx Hx'. apply in_map_iff in Hx as (t & <- & _).
      apply in_flat_map in Hx' as (i & Hi & Hin). apply in_seq in Hi.
      apply in_map_iff in Hin as (t' & E & _). inversion E. lia.
Qed.

Lemma flat_map_length {A B} (f : A -> list B) R l :
  (forall x, length (f x) = R) -> length (flat_map f l) = length l * R.
Proof. intros H. induction l as [|a l IH]; cbn; [reflexivity|]. now rewrite app_length, H, IH. Qed.

Lemma nth_flat_map {A B} (f : A -> list B) R l d a0 :
  (forall x, length (f x) = R) ->
  forall c r, r < R -> c < length l -> nth (r + c * R) (flat_map f l) d = nth r (f (nth c l a0)) d.
Proof.
  intros H. induction l as [|a l IH]; intros c r Hr Hc; [cbn in Hc; lia|].
  cbn [flat_map]. destruct c as [|c].
  - now rewrite app_nth1, Nat.add_0_r by (rewrite H; lia).
  - rewrite app_nth2, H by (rewrite H; lia). replace (r + S c * R - R) with (r + c * R) by lia.
    apply IH; [exact Hr | cbn in Hc; lia].
Qed.

Lemma ndindex_length dims : length (ndindex dims) = product dims.
Proof.
  induction dims as [|d r IH]; cbn [ndindex product fold_right]; auto.
  rewrite (flat_map_length _ (product r)), seq_length; [reflexivity|].
  intros i. now rewrite map_length.
Qed.

Lemma nth_grid {A} (f : nat -> nat -> A) (R C : nat) (d : A) :
  forall r c, r < R -> c < C ->
  nth (r + c * R) (flat_map (fun c => map (fun r => f c r) (seq 0 R)) (seq 0 C)) d = f c r.
Proof.
  intros r c Hr Hc.
  rewrite (nth_flat_map _ R _ d 0); [|intros x; now rewrite map_length, seq_length|exact Hr|now rewrite seq_length].
  rewrite seq_nth by exact Hc. rewrite (nth_indep _ d (f c 0)) by (now rewrite map_length, seq_length).
  rewrite (map_nth (f (0 + c))). now rewrite seq_nth.
Qed.

Lemma ndindex_nth2 n m i j : i < n -> j < m -> nth (j + i * m) (ndindex [n; m]) [] = [i; j].
Proof.
  intros Hi Hj. cbn [ndindex].
  assert (E : forall x, flat_map (fun k => map (cons k) [[]]) (seq 0 x) = map (fun k => [k]) (seq 0 x)).
  { intros x. generalize 0. induction x; intros s; cbn; [reflexivity | now rewrite IHx]. }
  rewrite (flat_map_ext _ (fun i0 => map (fun k => [i0; k]) (seq 0 m))).
  - now rewrite (nth_grid (fun a b => [a; b]) m n []) by lia.
  - intros a. rewrite E, map_map. reflexivity.
Qed.

Lemma append_assoc a b c : (a +++ b) +++ c = a +++ (b +++ c).
Proof. induction a; cbn; congruence. Qed.
Lemma append_inv_head a b c : a +++ b = a +++ c -> b = c.
Proof. induction a; cbn; intros H; auto. inversion H; auto. Qed.
Lemma append_nil_r a : a +++ EmptyString = a.
Proof. induction a; cbn; congruence. Qed.

Definition is_digit (c : ascii) : bool :=
  let n := nat_of_ascii c in (48 <=? n) && (n <=? 57).
Fixpoint all_digits (s : string) : bool :=
  match s with EmptyString => true | String c r => is_digit c && all_digits r end.

Lemma show_nat_digits n : all_digits (show_nat n) = true.
Proof. unfold show_nat. induction (Nat.to_uint n); cbn; auto. Qed.

Lemma show_nat_inj a b : show_nat a = show_nat b -> a = b.
Proof.
  unfold show_nat. intros H.
  assert (E : Some (Nat.to_uint a) = Some (Nat.to_uint b)).
  { rewrite <- !NilEmpty.usu. now rewrite H. }
  inversion E as [E']. apply (f_equal Nat.of_uint) in E'. now rewrite !Unsigned.of_to in E'.
Qed.

Lemma digits_sep s1 : forall s2 c1 c2 r1 r2,
  all_digits s1 = true -> all_digits s2 = true -> is_digit c1 = false -> is_digit c2 = false ->
  s1 +++ String c1 r1 = s2 +++ String c2 r2 -> s1 = s2 /\ c1 = c2 /\ r1 = r2.
Proof.
  induction s1 as [|a s1 IH]; intros [|b s2] c1 c2 r1 r2 D1 D2 N1 N2 H; cbn in *.
  - inversion H; auto.
  - inversion H; subst. apply andb_prop in D2 as [D2 _]. congruence.
  - inversion H; subst. apply andb_prop in D1 as [D1 _]. congruence.
  - injection H as -> H. apply andb_prop in D1 as [_ D1]. apply andb_prop in D2 as [_ D2].
    destruct (IH _ _ _ _ _ D1 D2 N1 N2 H) as (-> & -> & ->). auto.
Qed.

Arguments show_nat : simpl never.
Notation shows l := (map (fun i : nat => show_nat (S i)) l).

Lemma commas_sep l1 : forall l2 r1 r2,
  length l1 = length l2 -> l1 <> [] ->
  commas (shows l1) +++ String "]" r1 = commas (shows l2) +++ String "]" r2 -> l1 = l2 /\ r1 = r2.
Proof.
  induction l1 as [|a l1 IH]; intros [|b l2] r1 r2 HL HN H; try discriminate HL; [contradiction|].
  destruct l1 as [|a' l1], l2 as [|b' l2]; try discriminate HL; cbn [map commas] in H.
  - apply digits_sep in H as (E & _ & ->); auto using show_nat_digits.
    apply show_nat_inj in E. now injection E as ->.
  - rewrite !append_assoc in H. cbn [append] in H.
    apply digits_sep in H as (E & _ & H); auto using show_nat_digits.
    apply show_nat_inj in E. injection E as ->.
    destruct (IH (b' :: l2) r1 r2 (eq_add_S _ _ HL)) as (-> & ->); [discriminate|exact H|auto].
Qed.

Lemma firstn_skipn_eq {A} k (a b : list A) : firstn k a = firstn k b -> skipn k a = skipn k b -> a = b.
Proof. intros H1 H2. rewrite <- (firstn_skipn k a), <- (firstn_skipn k b). congruence. Qed.

Lemma bracket_sep k l1 l2 t1 t2 :
  length l1 = k -> length l2 = k ->
  (if Nat.eqb k 0 then "" else "[" ++ commas (shows l1) ++ "]")%string +++ t1
  = (if Nat.eqb k 0 then "" else "[" ++ commas (shows l2) ++ "]")%string +++ t2 ->
  l1 = l2 /\ t1 = t2.
Proof.
  intros L1 L2. destruct k; cbn [Nat.eqb append].
  - destruct l1, l2; try discriminate. auto.
  - intros H. injection H as H. rewrite !append_assoc in H.
    apply commas_sep in H; [exact H | congruence | intros ->; discriminate].
Qed.

Lemma render_sep names : forall g i1 i2 s1 s2,
  length i1 = length (concat g) -> length i2 = length (concat g) -> length names = length g ->
  render names g i1 +++ s1 = render names g i2 +++ s2 -> i1 = i2 /\ s1 = s2.
Proof.
  induction names as [|n ns IH]; intros [|g gs] i1 i2 s1 s2 L1 L2 LN H; try discriminate LN.
  - destruct i1, i2; try discriminate. auto.
  - cbn [concat] in L1, L2. rewrite app_length in L1, L2.
    cbn [render] in H. rewrite !append_assoc in H. apply append_inv_head in H.
    apply bracket_sep in H as (EF & H); [|rewrite firstn_length; lia..].
    (* what follows is the rendering of the remaining components, after a "." if there are any *)
    assert (H' : render ns gs (skipn (length g) i1) +++ s1 = render ns gs (skipn (length g) i2) +++ s2)
      by (destruct ns; [exact H | now injection H]).
    apply IH in H' as (ES & ->); [|rewrite skipn_length; lia..|now injection LN].
    split; [|reflexivity]. exact (firstn_skipn_eq (length g) _ _ EF ES).
Qed.

Lemma scalar_name_inj name s i1 i2 n :
  length i1 = length (iter_dims s) -> length i2 = length (iter_dims s) ->
  scalar_name name s i1 = Some n -> scalar_name name s i2 = Some n -> i1 = i2.
Proof.
  intros L1 L2. destruct s as [g|d]; cbn [scalar_name iter_dims] in *.
  - destruct (strip_der _ _) as [k rest]. destruct (rstrip_paren rest) as [mid j].
    destruct (Nat.eqb _ _) eqn:E; [|discriminate]. apply Nat.eqb_eq in E.
    intros H1 H2. rewrite <- H2 in H1. inversion H1 as [H]. apply append_inv_head in H.
    apply render_sep in H as (-> & _); auto.
  - intros H1 H2. rewrite <- H2 in H1. injection H1 as H.
    apply (f_equal (fun x => x +++ EmptyString)), (render_sep [name] [d]) in H as (-> & _); auto;
      cbn; now rewrite app_nil_r.
Qed.

(* every in-range element gets a name, or none does (the assert on the component count) *)
Lemma scalar_name_some name s i1 i2 n : scalar_name name s i1 = Some n -> exists n', scalar_name name s i2 = Some n'.
Proof.
  destruct s; cbn [scalar_name]; [|eauto].
  destruct (strip_der _ _). destruct (rstrip_paren _). destruct (Nat.eqb _ _); [eauto|discriminate].
Qed.

Lemma opt_all_some {A} (l : list (option A)) r : opt_all l = Some r -> l = map Some r.
Proof.
  revert r. induction l as [|[a|] l IH]; intros r H.
  - inversion H; auto.
  - change (opt_all (Some a :: l)) with (match opt_all l with Some r => Some (a :: r) | None => None end) in H.
    destruct (opt_all l) eqn:E; [|discriminate]. inversion H; subst. cbn. f_equal. now apply IH.
  - discriminate.
Qed.

Lemma Forall2_length {A B} (R : A -> B -> Prop) l1 l2 : Forall2 R l1 l2 -> length l1 = length l2.
Proof. induction 1; cbn; auto. Qed.

Lemma NoDup_map_inj_on {A B} (f : A -> B) l :
  NoDup l -> (forall a b, In a l -> In b l -> f a = f b -> a = b) -> NoDup (map f l).
Proof.
  induction l as [|x l IH]; intros N Hinj; cbn; [constructor|].
  inversion N; subst. constructor.
  - intros Hin. apply in_map_iff in Hin as (y & Hy & Hyl).
    assert (y = x) by (apply Hinj; auto; [now right | now left]). subst. contradiction.
  - apply IH; auto. intros a b Ha Hb. apply Hinj; now right.
Qed.

Lemma names_length name s names :
  opt_all (map (scalar_name name s) (ndindex (iter_dims s))) = Some names ->
  length names = product (iter_dims s).
Proof.
  intros H. apply opt_all_some in H.
  rewrite <- (map_length Some), <- H, map_length. apply ndindex_length.
Qed.

Lemma names_NoDup name s names :
  opt_all (map (scalar_name name s) (ndindex (iter_dims s))) = Some names -> NoDup names.
Proof.
  intros H. apply opt_all_some in H. apply (NoDup_map_inv Some). rewrite <- H.
  apply NoDup_map_inj_on; [apply ndindex_NoDup|]. intros a b Ha Hb E.
  assert (Hin := in_map (scalar_name name s) _ _ Ha). rewrite H in Hin.
  apply in_map_iff in Hin as (n & Hn & _).
  apply ndindex_In, Forall2_length in Ha, Hb.
  apply (scalar_name_inj name s a b n); congruence.
Qed.

Lemma one_based n i j d1 d2 :
  render [n] [[d1; d2]] [i; j] = n +++ String "[" (show_nat (i + 1) +++ String "," (show_nat (j + 1) +++ String "]" EmptyString)).
Proof.
  cbn. rewrite !Nat.add_1_r. rewrite append_nil_r, !append_assoc. reflexivity.
Qed.

(* reshape(vertcat(scalars), (n2, n1)).T has the row-major k-th scalar at (i, j) *)
Theorem layout names n m i j :
  length names = n * m -> i < n -> j < m ->
  mget (subst_matrix names n m) i j = nth (j + i * m) names EmptyString
  /\ nth (j + i * m) (ndindex [n; m]) [] = [i; j]
  /\ m_rows (subst_matrix names n m) = n /\ m_cols (subst_matrix names n m) = m.
Proof.
  intros L Hi Hj. repeat split.
  - unfold subst_matrix, transpose, reshape, column, mget at 1. cbn [m_rows m_cols m_data].
    rewrite (nth_grid (fun c r => mget (mk_mat m n names) c r) n m EmptyString i j Hi Hj).
    unfold mget. cbn [m_rows m_data]. reflexivity.
  - now apply ndindex_nth2.
Qed.

Fixpoint shaped (dims : list nat) (v : nlist) : Prop :=
  match dims with
  | [] => exists a, v = NLeaf a
  | d :: r => exists l, v = NNode l /\ length l = d /\ Forall (shaped r) l
  end.

(* row-major flattening of a nested list of the given rank *)
Fixpoint flat (dims : list nat) (v : nlist) : list aval :=
  match dims with
  | [] => match v with NLeaf a => [a] | _ => [] end
  | _ :: r => match v with NNode l => flat_map (flat r) l | _ => [] end
  end.

Lemma flat_map_seq_nth {A B} (g : A -> list B) (l : list A) (h : nat -> list B) :
  (forall i x, nth_error l i = Some x -> h i = g x) ->
  flat_map h (seq 0 (length l)) = flat_map g l.
Proof.
  revert h. induction l as [|a l IH]; intros h H; cbn [length seq flat_map]; auto.
  rewrite (H 0 a eq_refl). f_equal.
  rewrite <- seq_shift, flat_map_concat_map, map_map, <- flat_map_concat_map.
  apply IH. intros i x Hx. apply (H (S i)). exact Hx.
Qed.

Theorem attributes_list dims : forall v, shaped dims v ->
  map (sel_list v) (ndindex dims) = map SVal (flat dims v).
Proof.
  induction dims as [|d r IH]; intros v Hs; cbn [shaped] in Hs.
  - destruct Hs as (a & ->). reflexivity.
  - destruct Hs as (l & -> & <- & Hall). cbn [ndindex flat].
    rewrite flat_map_concat_map, concat_map, map_map, <- flat_map_concat_map.
    rewrite (flat_map_seq_nth (fun x => map SVal (flat r x)) l).
    + rewrite !flat_map_concat_map, concat_map, map_map. reflexivity.
    + intros i x Hx. rewrite map_map. cbn [sel_list]. rewrite Hx.
      apply IH. rewrite Forall_forall in Hall. apply Hall. eapply nth_error_In; eauto.
Qed.

Lemma attributes_scalar a idx : sel_attr (AtScalar a) idx = SVal a.
Proof. reflexivity. Qed.

(* an MX with a single element is read through its 1 x 1 shortcut, whatever the index *)
Lemma sel_attr_mat ismx n1 n2 rows idx x :
  sel_mat n1 n2 rows idx = x -> (n1 * n2 = 1 -> mat_get rows 0 0 = x) ->
  sel_attr (AtMat ismx n1 n2 rows) idx = x.
Proof.
  intros S H. destruct ismx; cbn [sel_attr]; [|exact S].
  destruct (Nat.eqb_spec (n1 * n2) 1) as [E|]; [exact (H E)|exact S].
Qed.

Lemma attributes_matrix ismx n1 n2 rows i j :
  i < n1 -> j < n2 -> sel_attr (AtMat ismx n1 n2 rows) [i; j] = mat_get rows i j.
Proof.
  intros Hi Hj. apply sel_attr_mat.
  - cbn [sel_mat]. now rewrite (proj2 (Nat.ltb_lt _ _) Hi), (proj2 (Nat.ltb_lt _ _) Hj).
  - intros E. apply Nat.eq_mul_1 in E as (-> & ->). f_equal; lia.
Qed.

Lemma attributes_column ismx n rows k :
  k < n -> sel_attr (AtMat ismx n 1 rows) [k] = mat_get rows k 0.
Proof.
  intros Hk. apply sel_attr_mat.
  - cbn [sel_mat]. now rewrite (proj2 (Nat.ltb_lt k (n * 1))), Nat.mod_small, Nat.div_small by lia.
  - intros E. f_equal; lia.
Qed.

Lemma index_of_app x pre post : ~ In x pre -> index_of x (pre ++ x :: post) = Some (length pre).
Proof.
  induction pre as [|y pre IH]; intros H; cbn.
  - now rewrite String.eqb_refl.
  - destruct (String.eqb_spec x y) as [->|_]; [exfalso; apply H; now left|].
    rewrite IH; auto. intros ?; apply H; now right.
Qed.

Lemma index_of_none x l : ~ In x l -> index_of x l = None.
Proof.
  induction l as [|y l IH]; intros H; cbn; auto.
  destruct (String.eqb_spec x y) as [->|_]; [exfalso; apply H; now left|].
  rewrite IH; auto. intros ?; apply H; now right.
Qed.

Lemma firstn_len_app {A} (pre l : list A) : firstn (length pre) (pre ++ l) = pre.
Proof. induction pre; cbn; congruence. Qed.
Lemma skipn_len_app {A} (pre : list A) x post : skipn (S (length pre)) (pre ++ x :: post) = post.
Proof. induction pre; cbn in *; auto. Qed.

Theorem outputs_in_place pre post x new :
  ~ In x pre -> rename_outputs (pre ++ x :: post) x new = pre ++ new ++ post.
Proof.
  intros H. unfold rename_outputs. rewrite index_of_app by auto.
  now rewrite firstn_len_app, skipn_len_app.
Qed.

Theorem outputs_untouched outs x new : ~ In x outs -> rename_outputs outs x new = outs.
Proof. intros H. unfold rename_outputs. now rewrite index_of_none. Qed.

Lemma rename_delay_head x rest new : rename_delay (x :: rest) x new = rest ++ new.
Proof. unfold rename_delay. cbn. now rewrite String.eqb_refl. Qed.

(* the loop visits the delay states in list order (they are the first inputs, in creation order);
   each visit pops the state and appends its scalars: at the end the scalars stand in the
   original order of their states *)
Theorem delay_order (f : string -> list string) (ds : list string) :
  fold_left (fun acc x => rename_delay acc x (f x)) ds ds = flat_map f ds.
Proof.
  assert (G : forall rest done,
             fold_left (fun acc x => rename_delay acc x (f x)) rest (rest ++ done) = done ++ flat_map f rest).
  { induction rest as [|x rest IH]; intros done; cbn [fold_left flat_map].
    - now rewrite app_nil_r.
    - cbn [app]. rewrite rename_delay_head, <- app_assoc, IH, <- app_assoc. reflexivity. }
  specialize (G ds []). now rewrite app_nil_r in G.
Qed.

Inductive expr :=
  | Elem (v : string) (i j : nat)      (* element (i, j) of the matrix symbol v, 0-based *)
  | Sym (s : string)
  | Const (z : Z)
  | Add (a b : expr) | Mul (a b : expr) | Neg (a : expr).

Section Residual.
  Variable dims : string -> nat * nat.             (* MX shape of every array symbol *)
  Variable names : string -> list string.          (* its scalars, in np.ndindex order *)
  Variable envU : string -> nat -> nat -> Z.       (* a point of the unexpanded model *)
  Variable envS : string -> Z.                     (* the same point, scalars by name *)

  Fixpoint evalU (e : expr) : Z :=
    match e with
    | Elem v i j => envU v i j
    | Sym s => envS s
    | Const z => z
    | Add a b => evalU a + evalU b
    | Mul a b => evalU a * evalU b
    | Neg a => - evalU a
    end.
  Fixpoint evalE (e : expr) : Z :=
    match e with
    | Elem v i j => 0            (* no matrix symbol is left *)
    | Sym s => envS s
    | Const z => z
    | Add a b => evalE a + evalE b
    | Mul a b => evalE a * evalE b
    | Neg a => - evalE a
    end.
  (* ca.substitute(eq, symbols, values): every element reference reads the substituted matrix *)
  Fixpoint subst (e : expr) : expr :=
    match e with
    | Elem v i j => Sym (mget (subst_matrix (names v) (fst (dims v)) (snd (dims v))) i j)
    | Sym s => Sym s
    | Const z => Const z
    | Add a b => Add (subst a) (subst b)
    | Mul a b => Mul (subst a) (subst b)
    | Neg a => Neg (subst a)
    end.
  Fixpoint in_range (e : expr) : Prop :=
    match e with
    | Elem v i j => i < fst (dims v) /\ j < snd (dims v)
    | Sym _ | Const _ => True
    | Add a b | Mul a b => in_range a /\ in_range b
    | Neg a => in_range a
    end.

  (* the renaming: element (i, j) of v has the value of the scalar enumerated at [i; j] *)
  Hypothesis names_len : forall v, length (names v) = fst (dims v) * snd (dims v).
  Hypothesis renaming : forall v i j, i < fst (dims v) -> j < snd (dims v) ->
      envU v i j = envS (nth (j + i * snd (dims v)) (names v) EmptyString).

  Theorem residual_elementwise e : in_range e -> evalE (subst e) = evalU e.
  Proof.
    induction e; cbn [subst evalE evalU in_range]; intros H; auto.
    - destruct H as (Hi & Hj).
      destruct (layout (names v) (fst (dims v)) (snd (dims v)) i j (names_len v) Hi Hj) as (-> & _).
      symmetry. now apply renaming.
    - destruct H. now rewrite IHe1, IHe2.
    - destruct H. now rewrite IHe1, IHe2.
    - now rewrite IHe.
  Qed.
End Residual.

Lemma map_fst_combine {A B} (l1 : list A) (l2 : list B) : length l1 = length l2 -> map fst (combine l1 l2) = l1.
Proof. revert l2; induction l1; intros [|b l2] H; cbn in *; try discriminate; auto. f_equal; auto. Qed.

Lemma map_snd_combine {A B} (l1 : list A) (l2 : list B) : length l1 = length l2 -> map snd (combine l1 l2) = l2.
Proof. revert l2; induction l1; intros [|b l2] H; cbn in *; try discriminate; auto. f_equal; auto. Qed.

Lemma expand_var_spec v ex :
  expand_var v = Some ex ->
  let idxs := ndindex (iter_dims (ushape v)) in
  opt_all (map (scalar_name (uname v) (ushape v)) idxs) = Some (map fst ex)
  /\ map snd ex = map (fun idx => map (fun a => sel_attr a idx) (uattrs v)) idxs
  /\ length ex = product (iter_dims (ushape v)).
Proof.
  unfold expand_var. intros H. cbv zeta in *. set (idxs := ndindex (iter_dims (ushape v))) in *.
  destruct (opt_all (map (scalar_name (uname v) (ushape v)) idxs)) as [names|] eqn:E; [|discriminate].
  destruct (forallb _ _); [|discriminate]. injection H as <-.
  assert (L : length names = length idxs) by (rewrite (names_length _ _ _ E); symmetry; apply ndindex_length).
  rewrite map_fst_combine, map_snd_combine by now rewrite map_length.
  repeat split. rewrite combine_length, map_length, L, Nat.min_id. apply ndindex_length.
Qed.

Lemma expand_var_some (Q : attr -> Prop) v names :
  (forall a idx, Q a -> In idx (ndindex (iter_dims (ushape v))) -> sel_ok (sel_attr a idx) = true) ->
  opt_all (map (scalar_name (uname v) (ushape v)) (ndindex (iter_dims (ushape v)))) = Some names ->
  Forall Q (uattrs v) ->
  exists ex, expand_var v = Some ex.
Proof.
  intros HS HN HF. unfold expand_var. rewrite HN. rewrite Forall_forall in HF.
  rewrite (proj2 (forallb_forall _ _)); [eauto|].
  intros x Hx. apply in_map_iff in Hx as (idx & <- & Hidx).
  apply forallb_forall. intros y Hy. apply in_map_iff in Hy as (a & <- & Ha). exact (HS a idx (HF a Ha) Hidx).
Qed.

Lemma expand_var_none v a idx :
  In a (uattrs v) -> In idx (ndindex (iter_dims (ushape v))) -> sel_attr a idx = SErr -> expand_var v = None.
Proof.
  intros Ha Hidx E. unfold expand_var.
  destruct (opt_all _) as [names|]; [|reflexivity].
  destruct (forallb _ _) eqn:F; [|reflexivity]. exfalso.
  rewrite forallb_forall in F.
  specialize (F (map (fun a => sel_attr a idx) (uattrs v)) (in_map _ _ _ Hidx)).
  rewrite forallb_forall in F. specialize (F (sel_attr a idx) (in_map _ _ _ Ha)).
  rewrite E in F. discriminate.
Qed.

(* attributes the expansion is defined on: scalars and lists of the full rank of the index *)
Definition attr_full (dims : list nat) (a : attr) : Prop :=
  match a with
  | AtScalar _ => True
  | AtList l => shaped dims l
  | AtMat _ _ _ _ => False
  end.

Lemma sel_full_ok dims a idx : attr_full dims a -> In idx (ndindex dims) -> sel_ok (sel_attr a idx) = true.
Proof.
  destruct a as [x|l|]; cbn [attr_full sel_attr]; intros F Hin; [reflexivity| |contradiction].
  apply attributes_list in F.
  apply (in_map (sel_list l)) in Hin. rewrite F in Hin. apply in_map_iff in Hin as (y & <- & _). reflexivity.
Qed.

Theorem expand_total v names :
  opt_all (map (scalar_name (uname v) (ushape v)) (ndindex (iter_dims (ushape v)))) = Some names ->
  Forall (attr_full (iter_dims (ushape v))) (uattrs v) ->
  exists ex, expand_var v = Some ex.
Proof. exact (expand_var_some _ v names (sel_full_ok _)). Qed.
