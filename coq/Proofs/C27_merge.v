(* C27 — proofs about the merge model (Model/C27_merge.v). *)
From Coq Require Import List Bool PArith Arith Permutation.
From PV Require Import Model.C27_merge.
Import ListNotations.

(* the inner fix of extend is merge_children extend *)
Lemma extend_eq hs cs ho co :
  extend (Node hs cs) (Node ho co) = Node (merge_hdr hs ho) (merge_children extend co cs).
Proof. reflexivity. Qed.

Section NodeInd.
  Variable P : node -> Prop.
  Hypothesis H : forall h cs, Forall (fun nc => P (snd nc)) cs -> P (Node h cs).
  Fixpoint node_ind2 (t : node) : P t :=
    match t with
    | Node h cs =>
        H h cs ((fix go (l : list (name * node)) : Forall (fun nc => P (snd nc)) l :=
                   match l with
                   | [] => Forall_nil _
                   | (n, c) :: l' => Forall_cons (n, c) (node_ind2 c) (go l')
                   end) cs)
    end.
End NodeInd.

Lemma find_upd n f l m :
  find m (upd n f l) = if Pos.eqb m n then option_map f (find n l) else find m l.
Proof.
  induction l as [|[k x] r IH]; simpl.
  - destruct (Pos.eqb m n); reflexivity.
  - destruct (Pos.eqb k n) eqn:E; simpl.
    + apply Pos.eqb_eq in E; subst k.
      destruct (Pos.eqb m n) eqn:E2.
      * apply Pos.eqb_eq in E2; subst m. rewrite Pos.eqb_refl. reflexivity.
      * rewrite Pos.eqb_sym, E2. reflexivity.
    + destruct (Pos.eqb k m) eqn:E3.
      * apply Pos.eqb_eq in E3; subst m. rewrite E. reflexivity.
      * exact IH.
Qed.

Lemma find_app_new m l n c :
  find m (l ++ [(n, c)]) =
  match find m l with Some a => Some a | None => if Pos.eqb n m then Some c else None end.
Proof.
  induction l as [|[k x] r IH]; simpl.
  - reflexivity.
  - destruct (Pos.eqb k m); [reflexivity | exact IH].
Qed.

Lemma find_In n l c : find n l = Some c -> In (n, c) l.
Proof.
  induction l as [|[k x] r IH]; simpl; intros Hf; [discriminate|].
  destruct (Pos.eqb k n) eqn:E.
  - apply Pos.eqb_eq in E; subst k. inversion Hf; subst. left; reflexivity.
  - right; apply IH; exact Hf.
Qed.

Lemma find_none n l : ~ In n (map fst l) -> find n l = None.
Proof.
  intros Hn. destruct (find n l) as [c|] eqn:F; [|reflexivity].
  exfalso. apply Hn. exact (in_map fst l (n, c) (find_In n l c F)).
Qed.

Definition comb (ext : node -> node -> node) (a c : option node) : option node :=
  match a, c with
  | Some a, Some c => Some (ext a c)
  | Some a, None => Some a
  | None, c => c
  end.

(* after the loop key n holds ext acc[n] co[n]; NoDup, because a key that came twice in co would be merged twice *)
Lemma find_merge_children ext co :
  forall acc n, NoDup (map fst co) ->
  find n (merge_children ext co acc) = comb ext (find n acc) (find n co).
Proof.
  induction co as [|[k c] co IH]; intros acc n ND; simpl.
  - destruct (find n acc); reflexivity.
  - inversion ND as [|? ? Hnotin ND']; subst.
    rewrite IH by assumption.
    destruct (Pos.eqb k n) eqn:E.
    + apply Pos.eqb_eq in E; subst k.
      rewrite (find_none n co Hnotin).
      unfold has. destruct (find n acc) eqn:F.
      * rewrite find_upd, Pos.eqb_refl, F. reflexivity.
      * rewrite find_app_new, F, Pos.eqb_refl. reflexivity.
    + unfold has. destruct (find k acc) eqn:F.
      * rewrite find_upd. rewrite Pos.eqb_sym, E. reflexivity.
      * rewrite find_app_new. destruct (find n acc); [reflexivity|].
        rewrite E. simpl. destruct (find n co); reflexivity.
Qed.

(* well-formed = no duplicate keys anywhere (a Python dict) *)
Fixpoint wf (t : node) : Prop :=
  match t with
  | Node _ cs =>
      NoDup (map fst cs) /\
      (fix all (l : list (name * node)) : Prop :=
         match l with [] => True | (_, c) :: l' => wf c /\ all l' end) cs
  end.

Lemma wf_Node h cs :
  wf (Node h cs) <-> NoDup (map fst cs) /\ Forall (fun nc => wf (snd nc)) cs.
Proof.
  cbn [wf]. apply and_iff_compat_l.
  induction cs as [|[k x] r IH]; [split; constructor|]. split.
  - intros [Hx Hr]. constructor; [exact Hx | apply IH, Hr].
  - intros H. inversion H; subst. split; [assumption | apply IH; assumption].
Qed.

Lemma wf_child h cs n c : wf (Node h cs) -> In (n, c) cs -> wf c.
Proof. intros H Hin. apply wf_Node in H. rewrite Forall_forall in H. exact (proj2 H (n, c) Hin). Qed.

Lemma wfb_Node h cs :
  wfb (Node h cs) = nodupb (map fst cs) && forallb (fun nc => wfb (snd nc)) cs.
Proof.
  cbn [wfb]. f_equal. induction cs as [|[k x] r IH]; [reflexivity|].
  cbn [forallb snd]. now rewrite <- IH.
Qed.

Lemma nodupb_NoDup l : nodupb l = true -> NoDup l.
Proof.
  induction l as [|x r IH]; simpl; intros Hb; [constructor|].
  apply andb_true_iff in Hb; destruct Hb as [Hx Hr].
  constructor; [|apply IH; exact Hr].
  intros Hin. apply negb_true_iff in Hx. apply diff_true_false. rewrite <- Hx. symmetry.
  apply existsb_exists. exists x; split; [exact Hin | apply Pos.eqb_refl].
Qed.

Lemma wfb_wf t : wfb t = true -> wf t.
Proof.
  induction t as [h cs IH] using node_ind2. intros Hb.
  rewrite wfb_Node in Hb. apply andb_true_iff in Hb. destruct Hb as [Hnd Hall].
  apply wf_Node. split; [apply nodupb_NoDup; exact Hnd|].
  rewrite Forall_forall in *. intros nc Hin. apply (IH nc Hin).
  exact (proj1 (forallb_forall _ _) Hall nc Hin).
Qed.

Definition omerge (a b : option hdr) : option hdr :=
  match a, b with
  | Some x, Some y => Some (merge_hdr x y)
  | Some x, None => Some x
  | None, y => y
  end.

Lemma omerge_None_r a : omerge a None = a.
Proof. destruct a; reflexivity. Qed.

Lemma adopt_assoc a b c : adopt (adopt a b) c = adopt a (adopt b c).
Proof. unfold adopt. destruct a; simpl; reflexivity. Qed.

Lemma merge_attrs_nil_r s : merge_attrs s [] = s.
Proof. destruct s; reflexivity. Qed.

Lemma merge_flags_nil_r s : merge_flags s [] = s.
Proof. destruct s; reflexivity. Qed.

Lemma merge_attrs_assoc a : forall b c,
  merge_attrs (merge_attrs a b) c = merge_attrs a (merge_attrs b c).
Proof.
  induction a as [|x a IH]; intros b c; [reflexivity|].
  destruct b as [|y b]; [reflexivity|].
  destruct c as [|z c]; [reflexivity|].
  simpl. rewrite adopt_assoc, IH. reflexivity.
Qed.

Lemma merge_flags_assoc a : forall b c,
  merge_flags (merge_flags a b) c = merge_flags a (merge_flags b c).
Proof.
  induction a as [|x a IH]; intros b c; [reflexivity|].
  destruct b as [|y b]; [reflexivity|].
  destruct c as [|z c]; [reflexivity|].
  simpl. rewrite orb_assoc, IH. reflexivity.
Qed.

Lemma merge_hdr_assoc a b c : merge_hdr (merge_hdr a b) c = merge_hdr a (merge_hdr b c).
Proof. unfold merge_hdr; simpl. rewrite merge_attrs_assoc, merge_flags_assoc. reflexivity. Qed.

Lemma omerge_assoc a b c : omerge (omerge a b) c = omerge a (omerge b c).
Proof.
  destruct a as [a|], b as [b|], c as [c|]; simpl; try reflexivity.
  rewrite merge_hdr_assoc; reflexivity.
Qed.

(* compatibility: at most one side gives a value to an attribute, or both give the same *)
Definition acompat (a b : attr) : Prop := a = [] \/ b = [] \/ a = b.

Fixpoint lcompat (s o : list attr) : Prop :=
  match s, o with
  | a :: s', b :: o' => acompat a b /\ lcompat s' o'
  | _, _ => True
  end.

Definition hcompat (a b : hdr) : Prop := h_ty a = h_ty b /\ lcompat (h_attrs a) (h_attrs b).

Definition ocompat (a b : option hdr) : Prop :=
  match a, b with Some x, Some y => hcompat x y | _, _ => True end.

Lemma adopt_comm a b : acompat a b -> adopt a b = adopt b a.
Proof.
  unfold adopt. intros [H|[H|H]]; subst; simpl.
  - destruct b; reflexivity.
  - destruct a; reflexivity.
  - reflexivity.
Qed.

Lemma merge_attrs_comm s : forall o, lcompat s o -> merge_attrs s o = merge_attrs o s.
Proof.
  induction s as [|a s IH]; intros o Hc.
  - simpl. rewrite merge_attrs_nil_r. reflexivity.
  - destruct o as [|b o]; [reflexivity|].
    simpl in *. destruct Hc as [Hab Hso]. rewrite (adopt_comm _ _ Hab), (IH _ Hso). reflexivity.
Qed.

Lemma merge_flags_comm s : forall o, merge_flags s o = merge_flags o s.
Proof.
  induction s as [|a s IH]; intros o.
  - simpl. rewrite merge_flags_nil_r. reflexivity.
  - destruct o as [|b o]; [reflexivity|]. simpl. rewrite orb_comm, IH. reflexivity.
Qed.

Lemma merge_hdr_comm a b : hcompat a b -> merge_hdr a b = merge_hdr b a.
Proof.
  intros [Hty Hl]. unfold merge_hdr.
  rewrite Hty, (merge_attrs_comm _ _ Hl), (merge_flags_comm (h_flags a)). reflexivity.
Qed.

Lemma omerge_comm a b : ocompat a b -> omerge a b = omerge b a.
Proof.
  destruct a as [a|], b as [b|]; simpl; intros Hc; try reflexivity.
  rewrite (merge_hdr_comm _ _ Hc); reflexivity.
Qed.

Lemma fold_left_omerge L : forall a, fold_left omerge L a = omerge a (fold_right omerge None L).
Proof.
  induction L as [|x L IH]; intros a; simpl.
  - rewrite omerge_None_r; reflexivity.
  - rewrite IH, omerge_assoc. reflexivity.
Qed.

(* the key lemma: lookup in a merged tree = merge of the lookups *)
Lemma get_extend o : wf o -> forall s p, get (extend s o) p = omerge (get s p) (get o p).
Proof.
  induction o as [ho co IH] using node_ind2. intros Hwf [hs cs] p.
  rewrite extend_eq. destruct p as [|n p]; [reflexivity|].
  simpl. rewrite find_merge_children by (destruct Hwf as [Hnd _]; exact Hnd).
  destruct (find n cs) as [a|] eqn:Fa; destruct (find n co) as [c|] eqn:Fc; simpl.
  - pose proof (find_In _ _ _ Fc) as Hin.
    rewrite Forall_forall in IH. apply (IH (n, c) Hin). exact (wf_child _ _ _ _ Hwf Hin).
  - rewrite omerge_None_r; reflexivity.
  - reflexivity.
  - reflexivity.
Qed.

Lemma get_fold ts p : Forall wf ts -> forall t0,
  get (fold_left extend ts t0) p = fold_left omerge (map (fun t => get t p) ts) (get t0 p).
Proof.
  induction ts as [|t ts IH]; intros Hwf t0; simpl; [reflexivity|].
  inversion Hwf; subst. rewrite IH by assumption. rewrite get_extend by assumption. reflexivity.
Qed.

Lemma get_merge_compiler ts p : Forall wf ts ->
  get (merge_compiler ts) p = omerge (get empty_root p) (fold_right omerge None (map (fun t => get t p) ts)).
Proof. intros Hwf. unfold merge_compiler. rewrite get_fold by assumption. apply fold_left_omerge. Qed.

Lemma get_merge_api t ts p : Forall wf ts ->
  get (merge_api (t :: ts)) p = fold_right omerge None (map (fun t => get t p) (t :: ts)).
Proof. intros Hwf. simpl. rewrite get_fold by assumption. apply fold_left_omerge. Qed.

Definition compatible (ts : list node) : Prop :=
  forall f g p hf hg, In f ts -> In g ts -> get f p = Some hf -> get g p = Some hg -> hcompat hf hg.

Lemma lookups_perm ts ts' p :
  Permutation ts ts' -> compatible ts ->
  fold_right omerge None (map (fun t => get t p) ts) = fold_right omerge None (map (fun t => get t p) ts').
Proof.
  induction 1 as [|x l l' HP IH|x y l|l l' l'' HP1 IH1 HP2 IH2]; intros Hc; simpl.
  - reflexivity.
  - rewrite IH; [reflexivity|]. intros f g q hf hg If Ig. apply Hc; right; assumption.
  - rewrite <- !omerge_assoc. f_equal. apply omerge_comm.
    destruct (get y p) as [hy|] eqn:Ey, (get x p) as [hx|] eqn:Ex; simpl; try exact I.
    apply (Hc y x p hy hx); simpl; auto.
  - rewrite IH1 by exact Hc. apply IH2.
    intros f g q hf hg If Ig. apply Hc; eapply Permutation_in; try eassumption; apply Permutation_sym; assumption.
Qed.

Theorem fold_extend_perm ts ts' t0 p :
  Permutation ts ts' -> Forall wf ts -> compatible ts ->
  get (fold_left extend ts t0) p = get (fold_left extend ts' t0) p.
Proof.
  intros HP Hwf Hc.
  assert (Forall wf ts') as Hwf' by (eapply Permutation_Forall; eassumption).
  rewrite !get_fold by assumption. rewrite !fold_left_omerge. f_equal.
  apply lookups_perm; assumption.
Qed.

Theorem merge_api_perm ts ts' p :
  Permutation ts ts' -> Forall wf ts -> compatible ts ->
  get (merge_api ts) p = get (merge_api ts') p.
Proof.
  intros HP Hwf Hc.
  assert (Forall wf ts') as Hwf' by (eapply Permutation_Forall; eassumption).
  destruct ts as [|t r]; destruct ts' as [|t' r'].
  - reflexivity.
  - apply Permutation_nil in HP; discriminate.
  - apply Permutation_sym, Permutation_nil in HP; discriminate.
  - inversion Hwf; inversion Hwf'; subst.
    rewrite !get_merge_api by assumption. apply lookups_perm; assumption.
Qed.

(* the property's "split into files with within clauses": two files that both know a class either
   agree on it or one of them only has the within-placeholder; the placeholder's type is right *)
Definition split_ok (ts : list node) : Prop :=
  forall f g p hf hg, In f ts -> In g ts -> get f p = Some hf -> get g p = Some hg ->
    (hf = ph_hdr \/ hg = ph_hdr \/ hf = hg) /\ h_ty hf = h_ty hg.

Lemma lcompat_refl s : lcompat s s.
Proof. induction s; simpl; [exact I|]. split; [right; right; reflexivity | assumption]. Qed.

Lemma lcompat_empty_l n o : lcompat (repeat [] n) o.
Proof.
  revert o; induction n; intros o; simpl; [exact I|]. destruct o; [exact I|].
  split; [left; reflexivity | apply IHn].
Qed.

Lemma lcompat_sym s : forall o, lcompat s o -> lcompat o s.
Proof.
  induction s as [|a s IH]; intros [|b o]; simpl; try tauto.
  intros [[H|[H|H]] Hl]; (split; [|apply IH; exact Hl]); unfold acompat; auto.
Qed.

Lemma split_ok_compatible ts : split_ok ts -> compatible ts.
Proof.
  intros Hs f g p hf hg If Ig Ef Eg.
  destruct (Hs f g p hf hg If Ig Ef Eg) as [[H|[H|H]] Hty]; split; try exact Hty; subst.
  - apply lcompat_empty_l.
  - apply lcompat_sym. apply lcompat_empty_l.
  - apply lcompat_refl.
Qed.

Lemma list_eqb_pos_eq a : forall b, list_eqb Pos.eqb a b = true -> a = b.
Proof.
  induction a as [|x a IH]; intros [|y b]; simpl; intros Hb; try reflexivity; try discriminate.
  apply andb_true_iff in Hb; destruct Hb as [Hx Hr].
  apply Pos.eqb_eq in Hx; subst. rewrite (IH _ Hr). reflexivity.
Qed.

Lemma acompatb_sound a b : acompatb a b = true -> acompat a b.
Proof.
  unfold acompat. destruct a as [|x a]; [left; reflexivity|]. destruct b as [|y b]; [right; left; reflexivity|].
  intros Hb. right; right. apply list_eqb_pos_eq. exact Hb.
Qed.

Lemma lcompatb_sound s : forall o, lcompatb s o = true -> lcompat s o.
Proof.
  induction s as [|a s IH]; intros [|b o]; simpl; intros Hb; try exact I.
  apply andb_true_iff in Hb; destruct Hb as [Ha Hr].
  split; [apply acompatb_sound; exact Ha | apply IH; exact Hr].
Qed.

Lemma hcompatb_sound a b : hcompatb a b = true -> hcompat a b.
Proof.
  unfold hcompatb, hcompat. intros Hb. apply andb_true_iff in Hb; destruct Hb as [Ht Hl].
  split; [apply Pos.eqb_eq; exact Ht | apply lcompatb_sound; exact Hl].
Qed.

Lemma tcompatb_Node ha ca hb cb :
  tcompatb (Node ha ca) (Node hb cb) =
  hcompatb ha hb &&
  forallb (fun nx => match find (fst nx) cb with Some y => tcompatb (snd nx) y | None => true end) ca.
Proof.
  cbn [tcompatb]. f_equal. induction ca as [|[n x] r IH]; [reflexivity|].
  cbn [forallb fst snd]. now rewrite <- IH.
Qed.

Lemma tcompatb_sound a : forall b, tcompatb a b = true ->
  forall p ha hb, get a p = Some ha -> get b p = Some hb -> hcompat ha hb.
Proof.
  induction a as [ha0 ca IH] using node_ind2. intros [hb0 cb] Hb p ha hb Ga Gb.
  rewrite tcompatb_Node in Hb. apply andb_true_iff in Hb. destruct Hb as [Hh Hch].
  rewrite forallb_forall in Hch.
  destruct p as [|n p]; simpl in Ga, Gb.
  - inversion Ga; inversion Gb; subst. apply hcompatb_sound; exact Hh.
  - destruct (find n ca) as [x|] eqn:Fx; [|discriminate].
    destruct (find n cb) as [y|] eqn:Fy; [|discriminate].
    apply find_In in Fx. specialize (Hch (n, x) Fx). cbn [fst snd] in Hch. rewrite Fy in Hch.
    rewrite Forall_forall in IH. exact (IH (n, x) Fx y Hch p ha hb Ga Gb).
Qed.

Lemma compat_filesb_sound ts : compat_filesb ts = true -> compatible ts.
Proof.
  unfold compat_filesb, compatible. intros Hb f g p hf hg If Ig Ef Eg.
  rewrite forallb_forall in Hb. specialize (Hb f If). rewrite forallb_forall in Hb.
  exact (tcompatb_sound f g (Hb g Ig) p hf hg Ef Eg).
Qed.

Lemma forallb_wfb ts : forallb wfb ts = true -> Forall wf ts.
Proof.
  intros Hb. rewrite forallb_forall in Hb. apply Forall_forall. intros t Ht. apply wfb_wf, Hb, Ht.
Qed.

Theorem observation_perm {A} (F : node -> A) :
  (forall t t', (forall p, get t p = get t' p) -> F t = F t') ->
  forall ts ts', Permutation ts ts' -> Forall wf ts -> compatible ts ->
  F (merge_api ts) = F (merge_api ts') /\ F (merge_compiler ts) = F (merge_compiler ts').
Proof.
  intros HF ts ts' HP Hwf Hc.
  split; apply HF; intros p; [apply merge_api_perm | unfold merge_compiler; apply fold_extend_perm]; assumption.
Qed.

(* concrete library: P (constants) with Base; `within P; model M`; `within P.Q; model S` *)
Definition ex_h (ty : positive) (syms eqs : attr) : hdr :=
  Hdr ty [[]; []; syms; []; []; eqs; []; []; []; []] [false; false; false].
Definition ex_f0 : file :=
  ([], [(10, Node (ex_h 1 [21; 22] []) [(11, Node (ex_h 3 [23] [31]) [])])])%positive.
Definition ex_f1 : file := ([10], [(12, Node (ex_h 3 [24] [32]) [])])%positive.
Definition ex_f2 : file := ([10; 13], [(14, Node (ex_h 3 [25] [33]) [])])%positive.
Definition ex_ts : list node := map file_to_tree [ex_f0; ex_f1; ex_f2].

(* two files that both give symbols to P: the hypothesis `compatible` cannot be dropped *)
Definition bad_a : node := file_to_tree ([], [(10, Node (ex_h 1 [21] []) [])])%positive.
Definition bad_b : node := file_to_tree ([], [(10, Node (ex_h 1 [22] []) [])])%positive.

(* tools/compiler.parse_all called several times on one tree: adding the files batch by batch is the same fold *)
Lemma fold_extend_batches (gs : list (list node)) (t0 : node) :
  fold_left extend (concat gs) t0 = fold_left (fun t g => fold_left extend g t) gs t0.
Proof.
  revert t0. induction gs as [|g gs IH]; intros t0; simpl; [reflexivity|].
  rewrite fold_left_app. apply IH.
Qed.
