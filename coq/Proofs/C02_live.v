(* C02 — mutual exclusion lifted to configurations, progress measure, deadlock freedom. *)
From Coq Require Import List Bool Arith Lia.
From PV Require Import Lib.Lock Model.C02_conc Proofs.C02_exec Proofs.C02_conc.
Import ListNotations.

Lemma opt_eqb_some x g : opt_eqb x (Some g) = true <-> x = Some g.
Proof.
  destruct x as [y|]; cbn; [|split; intros H; discriminate].
  rewrite Nat.eqb_eq. split; intros H; [subst; auto|inversion H; auto].
Qed.

Lemma others_in ts : forall i tid g j u,
  nth_error ts j = Some u -> i + j <> tid -> t_conn u = Some g ->
  In (t_lvl u) (others_from i tid g ts).
Proof.
  induction ts as [|t ts IH]; intros i tid g j u Hn Hne Hc; [destruct j; discriminate|].
  cbn [others_from]. apply in_or_app. destruct j as [|j]; cbn in Hn.
  - inversion Hn; subst t. left.
    replace (Nat.eqb i tid) with false by (symmetry; apply Nat.eqb_neq; lia).
    cbn. destruct (opt_eqb (t_conn u) (Some g)) eqn:E; [left; auto|].
    exfalso. apply opt_eqb_some in Hc. congruence.
  - right. apply (IH (S i) tid g j u); auto. lia.
Qed.

Lemma others_ex ts : forall i tid g l,
  In l (others_from i tid g ts) ->
  exists j u, nth_error ts j = Some u /\ i + j <> tid /\ t_conn u = Some g /\ t_lvl u = l.
Proof.
  induction ts as [|t ts IH]; intros i tid g l H; [destruct H|].
  cbn [others_from] in H. apply in_app_or in H. destruct H as [H|H].
  - destruct (Nat.eqb i tid) eqn:E1; cbn in H; [destruct H|].
    destruct (opt_eqb (t_conn t) (Some g)) eqn:E2; cbn in H; [|destruct H].
    destruct H as [H|[]]. exists 0, t. apply Nat.eqb_neq in E1. apply opt_eqb_some in E2.
    repeat split; auto. lia.
  - destruct (IH _ _ _ _ H) as (j & u & A & B & C & D). exists (S j), u. repeat split; auto. lia.
Qed.

Definition lock_step (c : cfg) (tid : nat) (t t' : thr) : Prop :=
  geb (t_lvl t') Res = true ->
  t_conn t' = t_conn t /\
  (geb (t_lvl t) Res = true \/ exists g, t_conn t = Some g /\ any_geb Res (others c tid g) = false).

Lemma advance_f_lock n k t :
  geb (t_lvl (advance_f n k t)) Res = true ->
  t_conn (advance_f n k t) = t_conn t /\ t_lvl (advance_f n k t) = t_lvl t.
Proof.
  apply (advance_f_ind (fun _ u => t_conn u = t_conn t /\ t_lvl u = t_lvl t)
                       (fun u => geb (t_lvl u) Res = true -> t_conn u = t_conn t /\ t_lvl u = t_lvl t));
    auto; discriminate.
Qed.

Definition mutex (c : cfg) : Prop :=
  forall i j ti tj g, i <> j ->
    nth_error (c_thrs c) i = Some ti -> nth_error (c_thrs c) j = Some tj ->
    t_conn ti = Some g -> t_conn tj = Some g ->
    geb (t_lvl ti) Res = true -> geb (t_lvl tj) Res = true -> False.

Lemma mutex_upd c tid t t' p s v :
  mutex c -> nth_error (c_thrs c) tid = Some t -> lock_step c tid t t' ->
  mutex (Cfg p s (upd_nth tid t' (c_thrs c)) v).
Proof.
  intros M Hn L.
  assert (One : forall j tj g, j <> tid -> nth_error (c_thrs c) j = Some tj -> t_conn t' = Some g ->
                  t_conn tj = Some g -> geb (t_lvl t') Res = true -> geb (t_lvl tj) Res = true -> False).
  { intros j tj g Hj Nj C' Cj G' Gj. destruct (L G') as (A & [B|(g' & B1 & B2)]).
    - apply (M tid j t tj g); auto; congruence.
    - assert (g' = g) by congruence. subst g'.
      pose proof (others_in (c_thrs c) 0 tid g j tj Nj ltac:(cbn; auto) Cj) as Hin.
      pose proof (any_geb_in _ _ _ B2 Hin). congruence. }
  intros i j ti tj g Hij Hi Hj Ci Cj Gi Gj. cbn in Hi, Hj.
  apply nth_upd_inv in Hi. apply nth_upd_inv in Hj.
  destruct Hi as [(-> & ->)|(Ei & Hi)]; destruct Hj as [(-> & ->)|(Ej & Hj)].
  - congruence.
  - apply (One j tj g); auto.
  - apply (One i ti g); auto.
  - apply (M i j ti tj g); auto.
Qed.

Lemma lock_step_adv c tid t t1 k :
  lock_step c tid t t1 -> lock_step c tid t (advance k t1).
Proof.
  unfold lock_step, advance. intros L H. destruct (advance_f_lock _ _ _ H) as (A & B).
  rewrite B in H. destruct (L H) as (C & D). split; [congruence|exact D].
Qed.

Lemma step_mutex tid c : mutex c -> mutex (fst (step tid c)).
Proof.
  intros M.
  assert (W : forall t g op l, t_conn t = Some g ->
                acquire (t_lvl t) (others c tid g) op = Grant l \/ acquire (t_lvl t) (others c tid g) op = Block l ->
                geb l Res = true ->
                geb (t_lvl t) Res = true \/ exists g, t_conn t = Some g /\ any_geb Res (others c tid g) = false).
  { intros t g op l C A H. pose proof (acquire_writer (t_lvl t) (others c tid g) op) as W.
    destruct A as [A|A]; rewrite A in W; destruct (W H); eauto. }
  destruct (step_stepped tid c)
    as [|t N R|t s k rr N R K [e o F _ _|g op l t' C O B ->|g _ C D|l x x' vi o r' O1 O2 V (G & _) ->]];
    cbn [fst r_thr r_path r_store r_viol r_out mk]; [exact M|apply (mutex_upd c tid t _ _ _ _ M N)..].
  - apply lock_step_adv. intros H. auto.
  - intros H. discriminate H.
  - intros H. split; [reflexivity|]. apply (W t g op l); auto.
  - apply lock_step_adv. intros H. auto.
  - apply lock_step_adv. unfold lock_step. cbn [ran_thr t_lvl t_conn]. intros H.
    destruct s; try discriminate H; (split; [reflexivity|]); destruct (lock_op t _) as [op|];
      try (subst l; auto); destruct G as (g & C & G); apply (W t g op l); auto.
Qed.

Lemma init_mutex p d0 pars : mutex (init_cfg p d0 pars).
Proof.
  intros i j ti tj g _ Hi _ _ _ Gi _. cbn in Hi.
  apply nth_error_In in Hi. apply in_map_iff in Hi. destruct Hi as (par & <- & _).
  destruct (advance_f_lock _ _ _ Gi) as (_ & B). unfold new_thr, advance in Gi. rewrite B in Gi. discriminate Gi.
Qed.

(* C02_mutex: no side condition on the program or the initial file *)
Theorem mutex_reachable p d0 pars sched : mutex (fst (run sched (init_cfg p d0 pars))).
Proof. apply (run_preserves mutex step_mutex), init_mutex. Qed.

(* progress measure: remaining program length *)
Lemma size_i_if c th el : size_i (IIf c th el) = S (size th + size el).
Proof. reflexivity. Qed.
Lemma size_app l1 l2 : size (l1 ++ l2) = size l1 + size l2.
Proof. induction l1; cbn [app size]; lia. Qed.

Definition mu (t : thr) : nat := match t_st t with Run => size (t_k t) | _ => 0 end.
Fixpoint Mu (ts : list thr) : nat := match ts with [] => 0 | t :: ts' => mu t + Mu ts' end.

Lemma Mu_upd ts : forall n t t', nth_error ts n = Some t -> Mu (upd_nth n t' ts) + mu t = Mu ts + mu t'.
Proof.
  induction ts as [|x ts IH]; intros [|n] t t' H; cbn in *; try discriminate.
  - inversion H; subst. lia.
  - specialize (IH n t t' H). lia.
Qed.

Lemma advance_size k t : t_st t = Run -> mu (advance k t) <= size k.
Proof.
  intros Hst. unfold advance.
  apply (advance_f_ind (fun k' u => t_st u = Run /\ size k' <= size k) (fun u => mu u <= size k)); [..|auto]; clear.
  - intros; apply Nat.le_0_l.
  - intros k' u (Hst & H). unfold mu. cbn [set_k t_st t_k]. rewrite Hst. exact H.
  - intros r b k' u (Hst & H). split; [exact Hst|]. cbn [size size_i] in H. lia.
  - intros c th el k' u (Hst & H). split; [exact Hst|]. cbn [size] in H. rewrite size_i_if in H.
    rewrite size_app. destruct (cond_val u c); lia.
Qed.

Definition progress (o : obs) : nat :=
  match snd o with OBlocked | OIdle => 0 | _ => 1 end.

Lemma step_measure tid c :
  Mu (c_thrs (fst (step tid c))) + progress (snd (step tid c)) <= Mu (c_thrs c).
Proof.
  assert (Up : forall t tn n, nth_error (c_thrs c) tid = Some t -> mu tn + n <= mu t ->
                 Mu (upd_nth tid tn (c_thrs c)) + n <= Mu (c_thrs c)).
  { intros t tn n N H. pose proof (Mu_upd (c_thrs c) tid t tn N). lia. }
  assert (At : forall t s k, t_st t = Run -> t_k t = IS s :: k -> mu t = S (size k))
    by (intros t s k R K; unfold mu; rewrite R, K; reflexivity).
  destruct (step_stepped tid c)
    as [|t N R|t s k rr N R K [e o F O1 O2|g op l t' C O B ->|g _ C D|l x x' vi o r' O1 O2 V A ->]];
    cbn [fst snd c_thrs r_thr r_path r_store r_viol r_out mk]; [cbn; lia|apply (Up t); [exact N|]; unfold progress; cbn [snd]..].
  - pose proof (advance_size (t_k t) t R). unfold mu at 2. rewrite R. lia.
  - rewrite (At t s k R K). destruct o; cbn; lia.
  - change (mu (with_lock t l (t_intx t) (t_view t))) with (mu t). lia.
  - rewrite (At t s k R K). pose proof (advance_size k (caught t) R). lia.
  - rewrite (At t s k R K). pose proof (advance_size k (ran_thr c t s l x x') R). destruct o; lia.
Qed.

Fixpoint progress_count (os : list obs) : nat :=
  match os with [] => 0 | o :: os' => progress o + progress_count os' end.

(* the number of attempts that are neither blocked nor idle is bounded by the total remaining
   program length: every such attempt consumes at least one statement *)
Lemma run_measure sched : forall c,
  Mu (c_thrs (fst (run sched c))) + progress_count (snd (run sched c)) <= Mu (c_thrs c).
Proof.
  induction sched as [|tid sched IH]; intros c; [cbn; lia|].
  cbn [run]. pose proof (step_measure tid c) as S1.
  destruct (step tid c) as [c1 o]. cbn [fst snd] in S1. specialize (IH c1).
  destruct (run sched c1) as [c2 os]. cbn [fst snd progress_count] in *. lia.
Qed.

(* normal form: a running call is always at a statement *)
Definition nf (t : thr) : Prop := t_st t = Run -> exists s k', t_k t = IS s :: k'.

Lemma advance_f_nf n : forall k t, size k < n -> nf (advance_f n k t).
Proof.
  induction n as [|n IH]; intros k t Hs; [lia|].
  destruct k as [|[s|c th el] k']; cbn [advance_f].
  - intros H. cbn in H. discriminate.
  - assert (G : nf (set_k t (IS s :: k'))) by (intros _; cbn; eauto).
    destruct s; try exact G. apply IH. cbn [size size_i] in Hs. lia.
  - apply IH. cbn [size] in Hs. rewrite size_i_if in Hs. rewrite size_app. destruct (cond_val t c); lia.
Qed.
Lemma advance_nf k t : nf (advance k t).
Proof. apply advance_f_nf. lia. Qed.

Lemma step_nf tid c : Forall nf (c_thrs c) -> Forall nf (c_thrs (fst (step tid c))).
Proof.
  intros H.
  destruct (step_stepped tid c)
    as [|t N R|t s k rr N R K [e o F O1 O2|g op l t' C O B ->|g _ C D|l x x' vi o r' O1 O2 V A ->]];
    cbn [fst c_thrs r_thr r_path r_store r_viol r_out mk]; [exact H|apply Forall_upd_nth; [|exact H]..]; try apply advance_nf.
  - intros X. discriminate X.
  - intros _. cbn [with_lock t_k]. eauto.
Qed.

Lemma init_nf p d0 pars : Forall nf (c_thrs (init_cfg p d0 pars)).
Proof. cbn. induction pars; cbn; constructor; auto. apply advance_nf. Qed.

Lemma blocked_other c tid t s :
  r_out (exec c tid t s) = OBlocked ->
  exists g l, t_conn t = Some g /\ In l (others c tid g) /\ l <> Unl.
Proof.
  intros H. destruct (exec_blocked c tid t s H) as (g & op & l' & C & _ & B).
  destruct (block_holder _ _ _ _ B) as (l & A). exists g, l. auto.
Qed.

Lemma md1_not_blocked c tid t s : has_mode t MD1 -> r_out (exec c tid t s) <> OBlocked.
Proof.
  intros (_ & Y & Z) H. destruct (exec_blocked c tid t s H) as (g & op & l & _ & O & B).
  rewrite Z in B. apply sh_blocked in B.
  destruct s as [|h| |[]|rd dst|w| | |r b]; cbn [lock_op] in O; rewrite ?Y in O; destruct B; congruence.
Qed.

Lemma mw_blocked c tid t s :
  has_mode t MW -> r_out (exec c tid t s) = OBlocked ->
  exists g, t_conn t = Some g /\ any_sh (others c tid g) = true.
Proof.
  intros (_ & _ & Z) H. destruct (exec_blocked c tid t s H) as (g & op & l & C & _ & B).
  exists g. split; [exact C|]. destruct (acquire_block _ _ _ _ B) as [(_ & _ & N)|(_ & _ & _ & S)]; congruence.
Qed.

Definition out_of (c : cfg) (tid : nat) : outcome := snd (snd (step tid c)).
Definition can_progress (c : cfg) (tid : nat) : Prop := out_of c tid <> OBlocked /\ out_of c tid <> OIdle.

Lemma not_blocked_progress c tid t s k' :
  nth_error (c_thrs c) tid = Some t -> t_st t = Run -> t_k t = IS s :: k' ->
  r_out (exec c tid t s) <> OBlocked -> can_progress c tid.
Proof.
  intros A B C D. unfold can_progress, out_of, step. rewrite A, B, C. split; [exact D|apply exec_not_idle].
Qed.

Lemma blocked_dec o : o = OBlocked \/ o <> OBlocked.
Proof. destruct o; auto; right; discriminate. Qed.

(* Some call can always make progress unless all calls have finished.  A chain of waiting has length two at
   most: a blocked call waits for a lock holder u; a holder in MD1 never waits; a holder in MW waits only at
   COMMIT, for a SHARED holder w, which is in MD1. *)
Lemma progress_exists c :
  inv c -> Forall nf (c_thrs c) ->
  (exists i t, nth_error (c_thrs c) i = Some t /\ t_st t = Run) ->
  exists tid, can_progress c tid.
Proof.
  intros (_ & _ & _ & Hts) Hnf (i & t & Hn & Hst).
  pose proof (nth_error_Forall _ _ _ _ Hnf Hn Hst) as (s & k' & Hk).
  destruct (blocked_dec (r_out (exec c i t s))) as [Hb|Hb];
    [|exists i; apply (not_blocked_progress c i t s k'); auto].
  destruct (blocked_other c i t s Hb) as (g & l & Hc & Hin & Hl).
  destruct (others_ex _ _ _ _ _ Hin) as (j & u & Nu & Hne & Cu & Lu). cbn in Hne.
  destruct (connected_live _ _ _ _ _ Hts Nu Cu) as (Su & _ & _ & a & _ & Ma & _).
  pose proof (nth_error_Forall _ _ _ _ Hnf Nu Su) as (su & ku & Ku).
  (* u holds a lock: it is in MD1 or MW *)
  assert (Ha : a = MD1 \/ a = MW).
  { destruct a; cbn in Ma; destruct Ma as (X & Y & Z); auto; try congruence. }
  destruct Ha as [Ha|Ha]; subst a.
  - exists j. apply (not_blocked_progress c j u su ku); auto. apply md1_not_blocked; auto.
  - destruct (blocked_dec (r_out (exec c j u su))) as [Hb2|Hb2];
      [|exists j; apply (not_blocked_progress c j u su ku); auto].
    destruct (mw_blocked c j u su Ma Hb2) as (g2 & C2 & Sh2).
    apply existsb_exists in Sh2. destruct Sh2 as (l2 & In2 & Is2).
    destruct (others_ex _ _ _ _ _ In2) as (m & w & Nw & _ & Cw & Lw).
    destruct (connected_live _ _ _ _ _ Hts Nw Cw) as (Sw & _ & _ & aw & _ & Mw & _).
    pose proof (nth_error_Forall _ _ _ _ Hnf Nw Sw) as (sw & kw & Kw).
    assert (aw = MD1).
    { destruct l2; try discriminate. destruct aw; cbn in Mw; destruct Mw as (X & Y & Z); auto; try congruence.
      rewrite Lw in Z. discriminate. }
    subst aw. exists m. apply (not_blocked_progress c m w sw kw); auto. apply md1_not_blocked; auto.
Qed.

Lemma Mu_pos_run ts : 0 < Mu ts -> exists i t, nth_error ts i = Some t /\ t_st t = Run.
Proof.
  induction ts as [|x ts IH]; cbn; intros H; [lia|].
  destruct (t_st x) eqn:E; [exists 0, x; auto|..];
    unfold mu in H; rewrite E in H; destruct (IH ltac:(lia)) as (i & t & A & B); exists (S i), t; auto.
Qed.

Lemma Mu_ge_mu ts t : In t ts -> mu t <= Mu ts.
Proof. induction ts as [|x ts IH]; intros H; [destruct H|]. cbn. destruct H as [->|H]; [lia|]. specialize (IH H). lia. Qed.

Lemma Mu_zero_done ts : Forall nf ts -> Mu ts = 0 -> forall t, In t ts -> t_st t <> Run.
Proof.
  intros F H t Hin E. rewrite Forall_forall in F. destruct (F t Hin E) as (s & k' & Hk).
  pose proof (Mu_ge_mu ts t Hin) as G.
  assert (1 <= mu t) by (unfold mu; rewrite E, Hk; cbn [size size_i]; lia). lia.
Qed.

(* from every configuration satisfying the invariants a schedule of at most Mu entries finishes all calls:
   pick a call that can progress (progress_exists); its attempt lowers Mu (step_measure) *)
Lemma finishing_schedule n : forall c,
  Mu (c_thrs c) <= n -> inv c -> Forall nf (c_thrs c) ->
  exists sched, length sched <= n /\
    forall t, In t (c_thrs (fst (run sched c))) -> t_st t <> Run.
Proof.
  induction n as [|n IH]; intros c Hm Hi Hn.
  - exists []. split; auto. cbn. apply Mu_zero_done; auto. lia.
  - destruct (Nat.eq_dec (Mu (c_thrs c)) 0) as [Z|Z].
    + exists []. split; [cbn; lia|]. cbn. apply Mu_zero_done; auto.
    + destruct (progress_exists c Hi Hn (Mu_pos_run (c_thrs c) ltac:(lia))) as (tid & P1 & P2).
      pose proof (step_measure tid c) as SM. pose proof (step_inv tid c Hi) as (I1 & _).
      pose proof (step_nf tid c Hn) as N1.
      unfold can_progress, out_of in P1, P2.
      destruct (step tid c) as [c1 o] eqn:Es. cbn [fst snd] in *.
      assert (progress o = 1) by (unfold progress; destruct (snd o); congruence).
      destruct (IH c1 ltac:(lia) I1 N1) as (sched & L & D).
      exists (tid :: sched). split; [cbn; lia|]. cbn [run]. rewrite Es.
      destruct (run sched c1) as [c2 os]. exact D.
Qed.

(* C02_no_deadlock; what is assumed of the scheduler is said there *)
Theorem no_deadlock p d0 pars sched :
  side_ok p = true ->
  let c := fst (run sched (init_cfg p (Some d0) pars)) in
  (* 1 *) ((exists i t, nth_error (c_thrs c) i = Some t /\ t_st t = Run) -> exists tid, can_progress c tid) /\
  (* 2 *) (exists more, length more <= Mu (c_thrs c) /\
                        forall t, In t (c_thrs (fst (run more c))) -> t_st t <> Run) /\
  (* 3 *) (forall more, Mu (c_thrs (fst (run more c))) + progress_count (snd (run more c)) <= Mu (c_thrs c)).
Proof.
  intros Hs c.
  pose proof (run_inv sched _ (init_inv p d0 pars Hs)) as (Hi & _).
  pose proof (run_preserves (fun c => Forall nf (c_thrs c)) step_nf sched _ (init_nf p (Some d0) pars)) as Hn.
  fold c in Hi, Hn.
  split; [apply progress_exists; auto|]. split; [apply (finishing_schedule (Mu (c_thrs c))); auto|].
  intros more. apply run_measure.
Qed.
