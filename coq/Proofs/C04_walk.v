(* C04 — the whole walk: the order counter and the allocation stamp only grow, so over a whole file the order
   numbers increase strictly in source order and no two symbols share a prefixes / dimensions / type object.  The
   ghost component l_trace of the listener state records (order, ids) of every symbol in creation order; the
   invariant `good` is stated on the piece of trace an element appends.  The file ends with the vocabulary of
   Props/C04.v that speaks of HEAD only (ideal reading, modelled subset). *)
From Coq Require Import String List Bool Arith Lia Sorting.Sorted Sorting.Permutation.
From PV Require Import Model.C04_listener Proofs.C04_listener.
Import ListNotations.
Open Scope string_scope.
Open Scope list_scope.

Definition kord (x : key_t) : nat := fst x.
Definition kpid (x : key_t) : nat := fst (fst (snd x)).
Definition kdid (x : key_t) : nat := snd (fst (snd x)).
Definition ktid (x : key_t) : nat := snd (snd x).

Lemma kord_key l : map kord (map key l) = map s_order l.
Proof. apply map_map. Qed.
Lemma kpid_key l : map kpid (map key l) = map s_pid l.
Proof. apply map_map. Qed.
Lemma kdid_key l : map kdid (map key l) = map s_did l.
Proof. apply map_map. Qed.
Lemma ktid_key l : map ktid (map key l) = map s_tid l.
Proof. apply map_map. Qed.

Lemma incr_app a : forall c c1 b c2, incr_from c a c1 -> incr_from c1 b c2 -> incr_from c (a ++ b) c2.
Proof.
  induction a as [|o r IH]; intros c c1 b c2; cbn [incr_from app]; [apply incr_weaken|].
  intros [H1 H2] H3. split; [exact H1|eapply IH; eassumption].
Qed.

Lemma incr_seq n : forall c, incr_from c (seq c n) (c + n).
Proof.
  induction n as [|n IH]; intros c; cbn [seq incr_from]; [lia|]. split; [lia|].
  rewrite <- Nat.add_succ_comm. apply IH.
Qed.

Lemma incr_sorted os : forall c c', incr_from c os c' -> StronglySorted lt os.
Proof.
  induction os as [|o r IH]; intros c c'; cbn [incr_from]; [constructor|]. intros [H1 H2].
  constructor; [eapply IH; eassumption|]. destruct (incr_bounds _ _ _ H2) as [_ F].
  eapply Forall_impl; [|exact F]. cbn. intros; lia.
Qed.

Record good (c n : nat) (K : list key_t) (c' n' : nat) : Prop := mkGood {
  g_ord : incr_from c (map kord K) c';
  g_p : incr_from n (map kpid K) n'; g_d : incr_from n (map kdid K) n'; g_t : incr_from n (map ktid K) n' }.

Lemma good_app c n K1 c1 n1 K2 c2 n2 : good c n K1 c1 n1 -> good c1 n1 K2 c2 n2 -> good c n (K1 ++ K2) c2 n2.
Proof. intros [] []. split; rewrite map_app; eapply incr_app; eassumption. Qed.

Definition ids_in (b m : nat) (s : osym) : Prop :=
  (b <= s_pid s < m) /\ (b <= s_did s < m) /\ (b <= s_tid s < m).

Lemma ids_in_set_dims b m m' j x s : ids_in b m s -> m <= j < m' -> ids_in b m' (set_dims j x s).
Proof. unfold ids_in. cbn. lia. Qed.

(* Only the first symbol of a clause keeps objects made before the copies; its stamps lie in [b, m). *)
Definition head_in (b m : nat) (ss : list osym) : Prop :=
  match ss with [] => True | s :: _ => ids_in b m s end.

Lemma pre_syms_head cl b ds c n : S (S (S b)) <= n ->
  head_in b (pre_next ds n) (pre_syms cl b (S b) (S (S b)) ds c n).
Proof.
  intros Hn. destruct ds as [|d r]; [exact I|]. cbn [pre_syms pre_next head_in].
  pose proof (pre_next_mono r (step_next d n)) as Hm. unfold ids_in, step_next in *. cbn. destruct (d_dims d); lia.
Qed.

Lemma merge_dims_mono D0 Dc subs ss : forall k, k <= snd (merge_dims D0 Dc subs ss k).
Proof.
  induction ss as [|s r IH]; intros k; [apply le_n|]. rewrite merge_cons_snd.
  specialize (IH (if Nat.eqb (s_did s) D0 then k else S k)). destruct (Nat.eqb (s_did s) D0); lia.
Qed.

Lemma dims_step_head v cl b D0 ss m : head_in b m ss ->
  head_in b (snd (dims_step v cl D0 ss m)) (fst (dims_step v cl D0 ss m)) /\ m <= snd (dims_step v cl D0 ss m).
Proof.
  intros H. unfold dims_step. destruct (c_dims cl) as [subs|]; [destruct (v_dimsmerge v)|]; cbn [fst snd].
  - split; [|pose proof (merge_dims_mono D0 m subs (map (set_type (c_type cl)) ss) (S m)); lia].
    destruct ss as [|s r]; [exact I|]. cbn [map]. rewrite merge_cons, merge_cons_snd.
    pose proof (merge_dims_mono D0 m subs (map (set_type (c_type cl)) r)) as L.
    destruct (Nat.eqb (s_did (set_type (c_type cl) s)) D0); [specialize (L (S m))|specialize (L (S (S m)))];
      (apply (ids_in_set_dims b m); [exact H|lia]).
  - split; [|lia]. destruct ss as [|s r]; [exact I|]. apply (ids_in_set_dims b m); [exact H|lia].
  - split; [|lia]. now destruct ss.
Qed.

Lemma tail_copy_ids b ss n : head_in b n ss -> b <= n ->
  incr_from b (map s_pid (fst (tail_copy ss n))) (snd (tail_copy ss n))
  /\ incr_from b (map s_did (fst (tail_copy ss n))) (snd (tail_copy ss n))
  /\ incr_from b (map s_tid (fst (tail_copy ss n))) (snd (tail_copy ss n)).
Proof.
  intros Hh Hb. destruct ss as [|s0 tl]; cbn [tail_copy]; [now repeat split|].
  destruct Hh as ((Pl & Pu) & (Dl & Du) & (Tl & Tu)).
  destruct (copy_syms_fresh tl n) as (A & B & C). destruct (copy_syms tl n) as [tl' n'].
  cbn [fst snd map incr_from] in *.
  (* `x < n` is `S x <= n`: the copies' stamps start above the first symbol's *)
  repeat split; try assumption.
  - exact (incr_weaken _ _ _ _ Pu A).
  - exact (incr_weaken _ _ _ _ Du B).
  - exact (incr_weaken _ _ _ _ Tu C).
Qed.

Lemma clause_run_ids v cl c b :
  incr_from b (map s_pid (fst (clause_run v cl c b))) (snd (clause_run v cl c b))
  /\ incr_from b (map s_did (fst (clause_run v cl c b))) (snd (clause_run v cl c b))
  /\ incr_from b (map s_tid (fst (clause_run v cl c b))) (snd (clause_run v cl c b)).
Proof.
  unfold clause_run. rewrite close_clause_eq.
  pose proof (pre_syms_head cl b (c_decls cl) c (S (S (S b))) (le_n _)) as F0.
  destruct (dims_step_head v cl b (S (S b)) _ _ F0) as [F1 L1].
  pose proof (pre_next_mono (c_decls cl) (S (S (S b)))) as L0.
  apply (tail_copy_ids b _ _ F1). lia.
Qed.

Lemma clause_good v cl seen l ss seen' l' :
  do_clause v cl (seen, l) = Ok (ss, (seen', l')) ->
  good (l_count l) (l_next l) (map key ss) (l_count l') (l_next l') /\ l_trace l' = l_trace l ++ map key ss.
Proof.
  intros H. apply do_clause_ok in H. destruct H as (Hs & _ & _ & ->). cbn [l_count l_next l_trace].
  split; [|reflexivity]. destruct (clause_run_ids v cl (l_count l) (l_next l)) as (N1 & N2 & N3).
  split; rewrite ?kord_key, ?kpid_key, ?kdid_key, ?ktid_key; subst ss; try assumption.
  rewrite (proj2 (clause_run_spec v cl _ _)). apply incr_seq.
Qed.

(* `element` recurs through lists of sections of lists of elements; Coq's element_ind has no hypothesis for those *)
Section ElemInd.
  Variable P : element -> Prop.
  Hypothesis Hc : forall cl, P (EComp cl).
  Hypothesis He : forall p m a, P (EExt p m a).
  Hypothesis Hi : forall i a, P (EImp i a).
  Hypothesis Hk : forall ct n cm secs eqs algs,
      Forall (fun s : label * list element => Forall P (snd s)) secs -> P (ECls ct n cm secs eqs algs).
  Fixpoint element_ind2 (e : element) : P e :=
    match e with
    | EComp cl => Hc cl
    | EExt p m a => He p m a
    | EImp i a => Hi i a
    | ECls ct n cm secs eqs algs =>
        Hk ct n cm secs eqs algs
           ((fix go (ss : list (label * list element)) : Forall (fun s => Forall P (snd s)) ss :=
               match ss with
               | [] => Forall_nil _
               | s :: r =>
                   Forall_cons s
                     ((fix go2 (els : list element) : Forall P els :=
                         match els with
                         | [] => Forall_nil _
                         | e' :: r2 => Forall_cons e' (element_ind2 e') (go2 r2)
                         end) (snd s))
                     (go r)
               end) secs)
    end.
End ElemInd.

Definition sorted_cls (c : oclass) : Prop := StronglySorted lt (map s_order (o_syms c)).

(* K = the piece of trace appended; rsyms = symbols handed to the enclosing class; cls = classes produced *)
Definition step_inv (l : lst) (rsyms : list osym) (cls : list oclass) (l' : lst) : Prop :=
  exists K, l_trace l' = l_trace l ++ K
    /\ Permutation K (map key (rsyms ++ flat_map o_syms cls))
    /\ good (l_count l) (l_next l) K (l_count l') (l_next l')
    /\ incr_from (l_count l) (map s_order rsyms) (l_count l')
    /\ Forall sorted_cls cls.

Definition el_inv (e : element) : Prop := forall v path k l r cls k' l',
  do_element v path e (k, l) = Ok ((r, cls), (k', l')) -> step_inv l (syms_of [r]) cls l'.

Ltac split5 := split; [|split; [|split; [|split]]].

Lemma step_inv_nil l l' : l_trace l' = l_trace l -> l_count l <= l_count l' -> l_next l <= l_next l' ->
  step_inv l [] [] l'.
Proof.
  intros Ht Hc Hn. exists []. rewrite app_nil_r.
  split5; [exact Ht|cbn; constructor|split; assumption|exact Hc|constructor].
Qed.

(* the counter never decreases along the arguments of a modification (`modif` / `arg` recur through `list arg`:
   a fixpoint over both with an inner one over the list) *)
Fixpoint walk_modif_mono (rs : bool) (m : modif) : forall s, fst s <= fst (walk_modif rs m s)
with walk_arg_mono (rs : bool) (a : arg) : forall s, fst s <= fst (walk_arg rs a s).
Proof.
  - destruct m as [cm val]. destruct cm as [args|]; cbn [walk_modif]; [|intros; apply le_n].
    refine ((fix go (l : list arg) : forall s, fst s <= fst (fold_left (fun s' a => walk_arg rs a s') l s) :=
               match l with
               | [] => fun s => le_n _
               | a :: r => fun s => Nat.le_trans _ _ _ (walk_arg_mono rs a s) (go r _)
               end) args).
  - destruct a as [n m|p t n d m c|ct n t]; cbn [walk_arg]; intros s.
    + destruct m as [m'|].
      * eapply Nat.le_trans; [|apply (walk_modif_mono rs m')]. destruct (snd s); cbn; lia.
      * destruct (snd s); cbn; lia.
    + cbn [fst]. destruct m as [m'|]; [|cbn; lia].
      eapply Nat.le_trans; [|apply (walk_modif_mono rs m')]. cbn; lia.
    + apply le_n.
Qed.

Lemma walk_args_mono rs m s : fst s <= fst (walk_args rs m s).
Proof. exact (walk_modif_mono rs (Modif m None) s). Qed.

Lemma bump_nil b l : step_inv l [] [] (bump b l).
Proof. unfold bump. destruct b; [destruct (l_symset l)|]; apply step_inv_nil; cbn; auto. Qed.

Lemma perm4 {A : Type} (a b c d : list A) : Permutation ((a ++ c) ++ (b ++ d)) ((a ++ b) ++ (c ++ d)).
Proof. rewrite <- !app_assoc. apply Permutation_app_head. apply Permutation_app_swap_app. Qed.

Lemma step_inv_app l s1 c1 l1 s2 c2 l2 :
  step_inv l s1 c1 l1 -> step_inv l1 s2 c2 l2 -> step_inv l (s1 ++ s2) (c1 ++ c2) l2.
Proof.
  intros (K1 & T1 & P1 & G1 & I1 & F1) (K2 & T2 & P2 & G2 & I2 & F2).
  exists (K1 ++ K2). split5.
  - now rewrite T2, T1, app_assoc.
  - rewrite flat_map_app, !map_app. rewrite !map_app in P1, P2.
    eapply Permutation_trans; [apply Permutation_app; eassumption|]. apply perm4.
  - eapply good_app; eassumption.
  - rewrite map_app. eapply incr_app; eassumption.
  - apply Forall_app. split; assumption.
Qed.

Lemma els_inv v path els : Forall el_inv els -> forall k l rs k' l',
  mapM (do_element v path) els (k, l) = Ok (rs, (k', l')) ->
  step_inv l (syms_of (map fst rs)) (concat (map snd rs)) l'.
Proof.
  intros HP k l rs k' l'.
  apply (mapM_run (do_element v path)
           (fun s _ rs s' => step_inv (snd s) (syms_of (map fst rs)) (concat (map snd rs)) (snd s'))).
  - intros s. now apply step_inv_nil.
  - intros s xs bs s1 ys cs s2 H1 H2. rewrite !map_app, syms_of_app, concat_app. eapply step_inv_app; eassumption.
  - eapply Forall_impl; [|exact HP]. intros e He [k0 l0] [r c] [k1 l1] H. apply He in H.
    cbn [map fst snd concat]. now rewrite app_nil_r.
Qed.

Definition all_rs (srs : list (label * list (ores * list oclass))) : list (ores * list oclass) := flat_map snd srs.

Lemma secs_inv v path secs : Forall (fun s : label * list element => Forall el_inv (snd s)) secs -> forall k l srs k' l',
  mapM (sec_fun v path) secs (k, l) = Ok (srs, (k', l')) ->
  step_inv l (syms_of (map fst (all_rs srs))) (concat (map snd (all_rs srs))) l'.
Proof.
  intros HP k l srs k' l'.
  apply (mapM_run (sec_fun v path)
           (fun s _ srs s' => step_inv (snd s) (syms_of (map fst (all_rs srs))) (concat (map snd (all_rs srs))) (snd s'))).
  - intros s. now apply step_inv_nil.
  - intros s xs bs s1 ys cs s2 H1 H2. unfold all_rs. rewrite flat_map_app, !map_app, syms_of_app, concat_app.
    eapply step_inv_app; eassumption.
  - eapply Forall_impl; [|exact HP]. intros [lb els] He [k0 l0] [lb' rs] [k1 l1] H. unfold sec_fun in H. cbn [fst snd] in H, He.
    destruct (mapM (do_element v path) els (k0, l0)) as [[rs0 [k2 l2]]|] eqn:E1; [|discriminate].
    injection H as <- <- <- <-. apply (els_inv v path els He) in E1.
    unfold all_rs. cbn [flat_map snd]. now rewrite app_nil_r.
Qed.

(* the visibility assignment changes neither order numbers nor object identities *)
Lemma keys_set_vis w rs : map key (syms_of (map (set_vis_res w) rs)) = map key (syms_of rs).
Proof.
  unfold syms_of. induction rs as [|r rs IH]; [reflexivity|]. cbn [map flat_map]. rewrite !map_app, IH. f_equal.
  destruct r; cbn; try reflexivity. rewrite map_map. apply map_ext. reflexivity.
Qed.

Lemma assign_at_keys epub epro X : forall i,
  map key (syms_of (concat (assign_at epub epro X i))) = map key (syms_of (concat (map snd X))).
Proof.
  induction X as [|[lb rs] r IH]; intros i; [reflexivity|]. cbn [assign_at map snd concat].
  rewrite !syms_of_app, !map_app, IH. f_equal.
  destruct lb; [|destruct (opt_is epub i)|destruct (opt_is epro i)]; try reflexivity; apply keys_set_vis.
Qed.

Lemma assign_vis_keys v X : map key (syms_of (concat (assign_vis v X))) = map key (syms_of (concat (map snd X))).
Proof.
  unfold assign_vis. destruct (v_allsec v); [|apply assign_at_keys].
  induction X as [|[lb rs] r IH]; [reflexivity|]. cbn [map concat fst snd].
  now rewrite !syms_of_app, !map_app, IH, keys_set_vis.
Qed.

Lemma all_rs_fst srs : concat (map snd (map (fun s : label * list (ores * list oclass) => (fst s, map fst (snd s))) srs))
                       = map fst (all_rs srs).
Proof.
  unfold all_rs. induction srs as [|s r IH]; [reflexivity|]. cbn [map concat flat_map snd]. now rewrite map_app, IH.
Qed.
Lemma all_rs_snd srs : concat (map (fun s : label * list (ores * list oclass) => concat (map snd (snd s))) srs)
                       = concat (map snd (all_rs srs)).
Proof.
  unfold all_rs. induction srs as [|s r IH]; [reflexivity|]. cbn [map concat flat_map]. now rewrite map_app, concat_app, IH.
Qed.

Lemma el_inv_all : forall e, el_inv e.
Proof.
  apply element_ind2.
  - intros cl v path k l r cls k' l' H. cbn [do_element] in H.
    destruct (do_clause v cl (k_seen k, l)) as [[ss [seen' l1]]|] eqn:Hc; [|discriminate].
    injection H as <- <- <- <-. destruct (clause_good _ _ _ _ _ _ _ Hc) as [G T].
    exists (map key ss). unfold syms_of. cbn [flat_map]. rewrite !app_nil_r. split5; auto.
    destruct G as [G _ _ _]. now rewrite kord_key in G.
  - intros p m a v path k l r cls k' l' H. injection H as <- <- <- <-.
    pose proof (walk_args_mono (v_redecl v) m (l_count l, l_symset l)) as Hw. cbn [fst] in Hw.
    unfold ext_count. eapply (step_inv_app l [] [] _ [] []); [|apply bump_nil]. apply step_inv_nil; cbn; auto.
  - intros i a v path k l r cls k' l' H. cbn [do_element] in H.
    destruct (add_import v i (k_imports k)); [|discriminate]. injection H as <- <- <- <-. apply bump_nil.
  - intros ct n cm secs eqs algs IH v path k l r cls k' l' H. rewrite do_class_eq in H.
    destruct (mapM (sec_fun v (path ++ [n])) secs (mkK [] [] [], l)) as [[srs [k1 l1]]|] eqn:Hm; [|discriminate].
    injection H as <- <- <- <-. apply (secs_inv v _ secs IH) in Hm. destruct Hm as (K & T & P & G & I & F).
    set (own := finish_class v (path ++ [n]) ct cm _ k1 eqs algs).
    assert (Hk : map key (o_syms own) = map key (syms_of (map fst (all_rs srs)))).
    { subst own. rewrite finish_class_eq. cbn [o_syms]. now rewrite assign_vis_keys, all_rs_fst. }
    exists K. rewrite all_rs_snd. split5; auto.
    + cbn [syms_of flat_map app]. rewrite map_app, Hk, <- map_app. exact P.
    + exact (proj1 (incr_bounds _ _ _ (g_ord _ _ _ _ _ G))).
    + constructor; [|exact F]. unfold sorted_cls. rewrite <- kord_key, Hk, kord_key. eapply incr_sorted, I.
Qed.

Definition is_cls (e : element) : Prop := match e with ECls _ _ _ _ _ _ => True | _ => False end.

Lemma cls_results v path els : Forall is_cls els -> forall st rs st',
  mapM (do_element v path) els st = Ok (rs, st') -> syms_of (map fst rs) = [].
Proof.
  intros Hc [k l] rs [k' l'] H. apply do_elements_shape in H. destruct H as [E _].
  apply (map_eq_nil erase_sym). rewrite syms_of_erase, E. clear E.
  induction Hc as [|e r He _ IH]; [reflexivity|]. destruct e; try contradiction. exact IH.
Qed.

Theorem file_walk v cs out lf : run_file_full v cs = Ok (out, lf) -> Forall is_cls cs ->
  Permutation (l_trace lf) (map key (flat_map o_syms out))
  /\ good 0 0 (l_trace lf) (l_count lf) (l_next lf)
  /\ Forall sorted_cls out.
Proof.
  unfold run_file_full. intros H Hc.
  destruct (mapM (do_element v []) cs (mkK [] [] [], init_lst)) as [[rs [k l]]|] eqn:Hm; [|discriminate].
  inversion H; subst. clear H.
  pose proof (cls_results v [] cs Hc _ _ _ Hm) as Hr.
  apply (els_inv v [] cs) in Hm; [|apply Forall_forall; intros; apply el_inv_all].
  destruct Hm as (K & T & P & G & _ & F). cbn in T, G. subst K. rewrite Hr in P. cbn [app] in P. auto.
Qed.

Definition ideal_sym (vs : vis) (cl : clause) (d : declr) : osym :=
  mkS (d_name d) (c_type cl) (c_prefixes cl) (ideal_dims cl d) vs 0 (d_comment d) (spec_cm (d_mod d)) 0 0 0.
Definition ideal_syms (secs : list (label * list element)) : list osym :=
  flat_map (fun sec => flat_map (fun e => match e with
                                          | EComp cl => map (ideal_sym (vis_of_label (fst sec)) cl) (c_decls cl)
                                          | _ => []
                                          end) (snd sec)) secs.
Definition ideal_exts (secs : list (label * list element)) : list oext :=
  flat_map (fun sec => flat_map (fun e => match e with
                                          | EExt p m _ => [mkE p (vis_of_label (fst sec)) (conv_args m)]
                                          | _ => []
                                          end) (snd sec)) secs.

Lemma class_syms_head secs : class_syms head_variant secs = ideal_syms secs.
Proof.
  unfold class_syms. rewrite eff_vis_ideal by (left; reflexivity). unfold ideal_syms.
  induction secs as [|[lb els] r IH]; [reflexivity|]. cbn [map class_syms_aux flat_map fst snd]. rewrite IH. f_equal.
  unfold sec_syms. apply flat_map_ext. intros e. destruct e; try reflexivity. apply map_ext. intros d.
  unfold spec_sym, ideal_sym. rewrite spec_dims_ideal by (left; reflexivity). reflexivity.
Qed.

Lemma class_exts_head secs : class_exts head_variant secs = ideal_exts secs.
Proof.
  unfold class_exts. rewrite eff_vis_ideal by (left; reflexivity). unfold ideal_exts.
  induction secs as [|[lb els] r IH]; [reflexivity|]. cbn [map class_exts_aux flat_map fst snd]. now rewrite IH.
Qed.

(* The modelled subset.  An element redeclaration inside the modification of a COMPONENT (a declared one, or one
   that is itself redeclared inside an extends clause) is outside the model: there /repo HEAD corrupts the listener
   state (known finding redeclare-in-component-modification) and do_declr / walk_arg do not mirror that.
   C04_symbols, C04_sections, C04_order and C04_no_sharing carry `modelled … = true`; such texts are judged by the
   oracle only.  (modif_nested: a redeclaration inside the modification of a redeclared component.) *)
Fixpoint modif_redecl (m : modif) : bool :=
  match m with Modif cm _ => match cm with Some args => existsb arg_redecl args | None => false end end
with arg_redecl (a : arg) : bool :=
  match a with
  | Arg _ m => match m with Some m' => modif_redecl m' | None => false end
  | ARedecl _ _ _ _ _ _ => true
  | AShort _ _ _ => true
  end.
Fixpoint modif_nested (m : modif) : bool :=
  match m with Modif cm _ => match cm with Some args => existsb arg_nested args | None => false end end
with arg_nested (a : arg) : bool :=
  match a with
  | Arg _ m => match m with Some m' => modif_nested m' | None => false end
  | ARedecl _ _ _ _ m _ => match m with Some m' => modif_redecl m' | None => false end
  | AShort _ _ _ => false
  end.
Fixpoint modelled (e : element) : bool :=
  match e with
  | EComp cl => forallb (fun d => match d_mod d with Some m => negb (modif_redecl m) | None => true end) (c_decls cl)
  | EExt _ m _ => match m with Some args => negb (existsb arg_nested args) | None => true end
  | EImp _ _ => true
  | ECls _ _ _ secs _ _ => forallb (fun s : label * list element => forallb modelled (snd s)) secs
  end.

(* model M extends Base(a(b = 1), redeclare Real x = 3, redeclare model N = K); Real z; end M;  — x is no component of M *)
Definition redecl_example : element :=
  ECls "model" "M" ""
    [(Unl, [EExt ["Base"] (Some [Arg "a" (Some (Modif (Some [Arg "b" (Some (Modif None (Some "1")))]) None));
                                  ARedecl [] ["Real"] "x" None (Some (Modif None (Some "3"))) "";
                                  AShort "model" "N" ["K"]]) false;
            EComp (mkC [] ["Real"] None [mkD "z" None None ""])])] [] [].
