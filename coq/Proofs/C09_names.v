(* C09 — string level of the flattened names.
   pymoca names a flattened symbol by joining the instance path with CLASS_SEPARATOR = "." and
   compares names as plain strings (dict keys).  Here: the dot-joined instance of the model's
   Naming class, the proof that (for identifiers that are non-empty and contain no '.') the
   string-level run has exactly the solutions of the connection semantics over STRUCTURED names,
   and the three candidate string tests for "this zero-default entry belongs to that connector". *)
From stdpp Require Import gmap strings.
From Coq Require Import QArith Qcanon Ascii String.
From PV Require Import Lib.Closure Lib.DotJoin Model.C09_connect Proofs.C09_connect.
Close Scope Qc_scope.
Close Scope Q_scope.
Close Scope string_scope.

Lemma flat_map_map_fmap {A A' B C : Type} (r : A → A') (g : A' → list C) (g' : A → list B) (h : B → C) l :
  Forall (fun a => g (r a) = map h (g' a)) l → flat_map g (map r l) = map h (flat_map g' l).
Proof. induction 1 as [|a l Ha _ IH]; [done|]. simpl. by rewrite Ha, IH, map_app. Qed.

Lemma flat_map_fmap {A B C : Type} (g : A → list C) (g' : A → list B) (h : B → C) l :
  Forall (fun a => g a = map h (g' a)) l → flat_map g l = map h (flat_map g' l).
Proof. intros Hl. by rewrite <- (flat_map_map_fmap id g g' h l Hl), map_id. Qed.

Section EqvMap.
  Context {K1 K2 : Type} `{Countable K1} `{Countable K2}.
  Variable g : K1 → K2.
  Variable E : K1 → Prop.
  Hypothesis g_inj : ∀ a b, E a → E b → g a = g b → a = b.

  Definition gg (p : K1 * K1) : K2 * K2 := (g p.1, g p.2).
  Definition supp_ok (P : list (K1 * K1)) : Prop := Forall (fun p => E p.1 ∧ E p.2) P.

  Lemma eqv_in_supp P a b : supp_ok P → eqv P a b → a = b ∨ (E a ∧ E b).
  Proof.
    intros Hs. induction 1 as [x y Hxy|x|x y _ IH|x y z _ IH1 _ IH2].
    - right. by apply (proj1 (Forall_forall _ _) Hs (x, y)).
    - by left.
    - destruct IH as [->|[? ?]]; [by left|by right].
    - destruct IH1 as [->|[? ?]]; [done|]. destruct IH2 as [<-|[? ?]]; by right.
  Qed.

  Lemma eqv_map_fwd P a b : eqv P a b → eqv (map gg P) (g a) (g b).
  Proof.
    induction 1 as [x y Hxy|x|x y _ IH|x y z _ IH1 _ IH2].
    - apply eqv_pair. apply elem_of_list_fmap. by exists (x, y).
    - apply eqv_refl.
    - by apply eqv_sym.
    - by eapply eqv_trans.
  Qed.

  Lemma eqv_map_bwd P x y :
    supp_ok P → eqv (map gg P) x y →
    x = y ∨ ∃ a b, x = g a ∧ y = g b ∧ E a ∧ E b ∧ eqv P a b.
  Proof.
    intros Hs. induction 1 as [x y Hxy|x|x y _ IH|x y z _ IH1 _ IH2].
    - right. apply elem_of_list_fmap in Hxy as ([a b] & [= -> ->] & Hab).
      destruct (proj1 (Forall_forall _ _) Hs _ Hab) as [Ea Eb]. exists a, b.
      split_and!; [done..|]. by apply eqv_pair.
    - by left.
    - destruct IH as [->|(a & b & -> & -> & Ea & Eb & Hab)]; [by left|right].
      exists b, a. split_and!; [done..|]. by apply eqv_sym.
    - destruct IH1 as [->|(a & b & -> & -> & Ea & Eb & Hab)]; [done|].
      destruct IH2 as [<-|(b' & c & Hbb & -> & Eb' & Ec & Hbc)].
      + right. exists a, b. done.
      + right. apply g_inj in Hbb; try done. subst b'. exists a, c.
        split_and!; [done..|]. by eapply eqv_trans.
  Qed.

  Lemma eqv_map_from P a y :
    supp_ok P → E a → eqv (map gg P) (g a) y → ∃ b, E b ∧ y = g b ∧ eqv P a b.
  Proof.
    intros Hs Ea [<-|(a' & b & Ha & -> & Ea' & Eb & Hab)]%eqv_map_bwd; [| |done].
    - exists a. split; [done|]. split; [done|apply eqv_refl].
    - apply g_inj in Ha as ->; eauto.
  Qed.

  Lemma eqv_map_iff P a b :
    supp_ok P → E a → E b → eqv (map gg P) (g a) (g b) ↔ eqv P a b.
  Proof.
    intros Hs Ea Eb. split; [|apply eqv_map_fwd].
    intros (b' & Eb' & Hb & Hab)%eqv_map_from; [|done..]. by apply g_inj in Hb as ->.
  Qed.
End EqvMap.

Section Transfer.
  Context {N1 N2 : Type} `{Countable N1} `{Countable N2}.
  Variable f : N1 → N2.
  Variable D : N1 → Prop.
  Hypothesis f_inj : ∀ a b, D a → D b → f a = f b → a = b.

  Definition fk (k : N1 * bool) : N2 * bool := (f k.1, k.2).
  Definition Dk (k : N1 * bool) : Prop := D k.1.

  Lemma fk_inj a b : Dk a → Dk b → fk a = fk b → a = b.
  Proof.
    destruct a as [a1 a2], b as [b1 b2]. unfold Dk, fk. simpl. intros Da Db [= E ->].
    f_equal. by apply f_inj.
  Qed.

  Lemma pot_spec_transfer (Q : list (N1 * N1)) (ρ : N2 → Qc) :
    supp_ok D Q → pot_spec (map (gg f) Q) ρ ↔ pot_spec Q (ρ ∘ f).
  Proof.
    intros HQ. unfold pot_spec. split.
    - intros Hs a b Hab. simpl. apply Hs. by apply eqv_map_fwd.
    - intros Hs x y Hxy. eapply (eqv_map_bwd f D f_inj) in Hxy as [->|(a & b & -> & -> & _ & _ & Hab)];
        [done| |done]. by apply Hs.
  Qed.

  Lemma ssum_map (ρ : N2 → Qc) (l : list (N1 * bool)) : ssum ρ (map fk l) = ssum (ρ ∘ f) l.
  Proof. induction l as [|k l IH]; simpl; [done|]. by rewrite IH. Qed.

  Lemma mentioned_map (P : list ((N1 * bool) * (N1 * bool))) k' :
    mentioned (map (gg fk) P) k' ↔ ∃ k, k' = fk k ∧ mentioned P k.
  Proof.
    split.
    - intros (p' & (p & -> & Hp)%elem_of_list_fmap & Hk).
      destruct Hk as [->| ->]; [exists p.1|exists p.2]; (split; [done|]); exists p; auto.
    - intros (k & -> & p & Hp & Hk). exists (gg fk p). split; [apply elem_of_list_fmap; eauto|].
      destruct Hk as [->| ->]; auto.
  Qed.

  Lemma mentioned_Dk (P : list ((N1 * bool) * (N1 * bool))) k : supp_ok Dk P → mentioned P k → Dk k.
  Proof. intros Hs (p & Hp & [->| ->]); apply (proj1 (Forall_forall _ _) Hs p Hp). Qed.

  Lemma enum_map (P : list ((N1 * bool) * (N1 * bool))) k l :
    supp_ok Dk P → mentioned P k → enumerates P k l →
    enumerates (map (gg fk) P) (fk k) (map fk l).
  Proof.
    intros Hs Hk [Hnd Hl].
    assert (HDk : Dk k) by by eapply mentioned_Dk.
    assert (HDl : ∀ v, v ∈ l → Dk v).
    { intros v Hv%Hl. by destruct (eqv_in_supp Dk P k v Hs Hv) as [<-|[_ ?]]. }
    split.
    - apply NoDup_fmap_2_strong; [|done]. intros x y Hx Hy. apply fk_inj; by apply HDl.
    - intros v'. rewrite elem_of_list_fmap. split.
      + intros (v & -> & Hv%Hl). by apply eqv_map_fwd.
      + intros (v & _ & -> & Hv)%(eqv_map_from fk Dk fk_inj); [|done..]. exists v. by rewrite Hl.
  Qed.

  Lemma flow_spec_transfer (flows : list N1) (P : list ((N1 * bool) * (N1 * bool))) (ρ : N2 → Qc) :
    supp_ok Dk P → Forall D flows →
    flow_spec (map f flows) (map (gg fk) P) ρ ↔ flow_spec flows P (ρ ∘ f).
  Proof.
    intros Hs Hfl. unfold flow_spec. split; intros [H1 H2]; split.
    - intros k l Hk Hl. rewrite <- ssum_map. apply (H1 (fk k)); [apply mentioned_map; eauto|].
      by apply enum_map.
    - intros n Hn Hun. simpl. apply H2; [apply elem_of_list_fmap; eauto|].
      intros k' (k & -> & Hk)%mentioned_map Heq. simpl in Heq. apply (Hun k Hk).
      apply f_inj; [by eapply mentioned_Dk| |done]. rewrite Forall_forall in Hfl. by apply Hfl.
    - (* any enumeration of the class of fk k sums like the image of one of the class of k *)
      intros k' l' (k & -> & Hk)%mentioned_map Hl'.
      destruct (mentioned_has_set P k Hk) as (S & _ & HS%enumerates_elements).
      rewrite (ssum_enumerates ρ _ _ _ _ Hl' (enum_map P k _ Hs Hk HS)), ssum_map. by apply (H1 k).
    - intros n' (n & -> & Hn)%elem_of_list_fmap Hun. apply (H2 n Hn).
      intros k Hk <-. apply (Hun (fk k)); [apply mentioned_map; eauto|done].
  Qed.
End Transfer.

Notation seg := (list ascii).           (* identifier *)
Notation str := (list ascii).           (* flattened name as pymoca holds it *)
Definition dot : ascii := "."%char.     (* tree.py:18 CLASS_SEPARATOR *)
Definition sjoin : list seg → str := join dot.

Global Instance str_naming : Naming seg str :=
  {| nm := sjoin; ext := fun s x => s ++ dot :: x |}.

Notation fclauseP := ((list seg * bool) * (list seg * bool) * list (seg * kind))%type.
Notation fclauseS := ((str * bool) * (str * bool) * list (seg * kind))%type.

Definition name_ok (p : list seg) : Prop := p ≠ [] ∧ path_ok dot p.

Lemma sjoin_inj a b : name_ok a → name_ok b → sjoin a = sjoin b → a = b.
Proof. intros [_ Ha] [_ Hb]. by apply join_inj. Qed.

Lemma name_ok_snoc p x : path_ok dot p → seg_ok dot x → name_ok (p ++ [x]).
Proof.
  intros Hp Hx. split; [by destruct p|]. apply Forall_app. split; [done|by constructor].
Qed.

Definition clause_ok (c : fclauseP) : Prop :=
  name_ok c.1.1.1 ∧ name_ok c.1.2.1 ∧ Forall (fun v : seg * kind => seg_ok dot v.1) c.2.

(* the clause as the string-level code sees it *)
Definition renC (c : fclauseP) : fclauseS :=
  ((sjoin c.1.1.1, c.1.1.2), (sjoin c.1.2.1, c.1.2.2), c.2).

Definition keyS (k : list seg * bool) : str * bool := fk sjoin k.

Lemma flow_pairs_vars_ren (L R : list seg * bool) (vars : list (seg * kind)) :
  L.1 ≠ [] → R.1 ≠ [] →
  flow_pairs_vars (keyS L) (keyS R) vars = map (gg keyS) (flow_pairs_vars L R vars).
Proof.
  intros HL HR. apply flat_map_fmap, Forall_true. intros [x []]; [done| |done].
  unfold gg, keyS, fk. simpl. by rewrite !(join_snoc dot).
Qed.

Lemma pot_pairs_vars_ren (L R : list seg * bool) (vars : list (seg * kind)) :
  L.1 ≠ [] → R.1 ≠ [] →
  pot_pairs_vars (keyS L) (keyS R) vars = map (gg sjoin) (pot_pairs_vars L R vars).
Proof.
  intros HL HR. apply flat_map_fmap, Forall_true. intros [x []]; [|done|done].
  unfold gg, keyS, fk. simpl. by rewrite !(join_snoc dot).
Qed.

Lemma flow_pairs_ren (cs : list fclauseP) :
  Forall clause_ok cs → flow_pairs (map renC cs) = map (gg keyS) (flow_pairs cs).
Proof.
  intros Hcs. apply flat_map_map_fmap. eapply Forall_impl; [exact Hcs|].
  intros [[L R] vars] ([HL _] & [HR _] & _). by apply flow_pairs_vars_ren.
Qed.

Lemma pot_pairs_ren (cs : list fclauseP) :
  Forall clause_ok cs → pot_pairs (map renC cs) = map (gg sjoin) (pot_pairs cs).
Proof.
  intros Hcs. apply flat_map_map_fmap. eapply Forall_impl; [exact Hcs|].
  intros [[L R] vars] ([HL _] & [HR _] & _). by apply pot_pairs_vars_ren.
Qed.

Lemma flow_pairs_supp (cs : list fclauseP) :
  Forall clause_ok cs → supp_ok (Dk name_ok) (flow_pairs cs).
Proof.
  intros Hcs. apply Forall_flat_map. eapply Forall_impl; [exact Hcs|].
  intros [[L R] vars] ([_ HL] & [_ HR] & Hv). apply Forall_flat_map. eapply Forall_impl; [exact Hv|].
  intros [x []] Hx; [constructor| |constructor].
  apply Forall_singleton. split; by apply name_ok_snoc.
Qed.

Lemma pot_pairs_supp (cs : list fclauseP) :
  Forall clause_ok cs → supp_ok name_ok (pot_pairs cs).
Proof.
  intros Hcs. apply Forall_flat_map. eapply Forall_impl; [exact Hcs|].
  intros [[L R] vars] ([_ HL] & [_ HR] & Hv). apply Forall_flat_map. eapply Forall_impl; [exact Hv|].
  intros [x []] Hx; [|constructor..].
  apply Forall_singleton. split; by apply name_ok_snoc.
Qed.

Theorem string_level_correct (flows : list (list seg)) (cs : list fclauseP) (ρ : str → Qc) :
  Forall clause_ok cs → Forall name_ok flows →
  sat ρ (expand (map sjoin flows) (map renC cs)) ↔
  pot_spec (pot_pairs cs) (ρ ∘ sjoin) ∧ flow_spec flows (flow_pairs cs) (ρ ∘ sjoin).
Proof.
  intros Hcs Hfl. rewrite expand_correct, pot_pairs_ren, flow_pairs_ren by done.
  rewrite (pot_spec_transfer sjoin name_ok sjoin_inj) by by apply pot_pairs_supp.
  unfold keyS. rewrite (flow_spec_transfer sjoin name_ok sjoin_inj); [done|by apply flow_pairs_supp|done].
Qed.

Lemma mentioned_keyS (cs : list fclauseP) a :
  Forall clause_ok cs → mentioned (flow_pairs cs) a → mentioned (flow_pairs (map renC cs)) (keyS a).
Proof. intros Hcs Ha. rewrite flow_pairs_ren by done. apply mentioned_map. eauto. Qed.

Lemma eqv_keyS (cs : list fclauseP) a b :
  Forall clause_ok cs → mentioned (flow_pairs cs) a → name_ok b.1 →
  eqv (flow_pairs (map renC cs)) (keyS a) (keyS b) ↔ eqv (flow_pairs cs) a b.
Proof.
  intros Hcs Ha Hb. rewrite flow_pairs_ren by done.
  apply (eqv_map_iff (fk sjoin) (Dk name_ok) (fk_inj sjoin name_ok sjoin_inj)).
  - by apply flow_pairs_supp.
  - eapply mentioned_Dk; [by apply flow_pairs_supp|done].
  - done.
Qed.

Inductive name_test :=
  | TExact        (* d.pop(conn.name + SEP + var)        — tree.py:1118-1119 *)
  | TPrefixSep    (* entry.startswith(conn.name + SEP)   *)
  | TPrefixBare.  (* entry.startswith(conn.name)         *)

Definition hits (t : name_test) (conn : list seg) (fv : seg) (entry : str) : bool :=
  match t with
  | TExact => bool_decide (entry = sjoin conn ++ dot :: fv)
  | TPrefixSep => bool_decide ((sjoin conn ++ [dot]) `prefix_of` entry)
  | TPrefixBare => bool_decide (sjoin conn `prefix_of` entry)
  end.

Theorem exact_test_sound conn fv q :
  name_ok conn → seg_ok dot fv → name_ok q →
  hits TExact conn fv (sjoin q) = true ↔ q = conn ++ [fv].
Proof.
  intros [Hne Hc] Hf Hq. unfold hits. rewrite bool_decide_eq_true, <- (join_snoc dot) by done. split.
  - apply sjoin_inj; [done|by apply name_ok_snoc].
  - by intros ->.
Qed.

Theorem sep_test_sound conn fv q :
  name_ok conn → name_ok q →
  hits TPrefixSep conn fv (sjoin q) = true ↔ ∃ r, r ≠ [] ∧ q = conn ++ r.
Proof.
  intros [Hne Hc] [_ Hq]. unfold hits. rewrite bool_decide_eq_true. by apply prefix_sep_iff.
Qed.

Definition lit (s : string) : list ascii := list_ascii_of_string s.

Definition seg_okb (s : list ascii) : bool :=
  negb (bool_decide (s = [])) && negb (bool_decide (dot ∈ s)).
Lemma seg_okb_ok s : seg_okb s = true → seg_ok dot s.
Proof.
  unfold seg_okb. intros [H1 H2]%andb_true_iff. apply negb_true_iff in H1, H2.
  apply bool_decide_eq_false in H1, H2. done.
Qed.

(* vlib/c09.py (probe_names) reads every name test of expand_connectors and the separator out of
   tree.py and evaluates tie_ok on them: only the exact-key form the model mirrors, with the
   separator the theorems use, passes *)
Definition accepted (t : name_test) (sep : ascii) : bool :=
  match t with TExact => bool_decide (sep = dot) | _ => false end.
Definition tie_ok (sites : list name_test) (sep : ascii) : bool :=
  negb (bool_decide (sites = [])) && forallb (fun t => accepted t sep) sites.

(* inst is nested through list: the generated induction principle has no hypothesis for the
   sub-components *)
Section InstInd.
  Context {Sg : Type} (P : inst Sg → Prop).
  Hypothesis Hstep : ∀ decl subs cl,
      Forall (fun ns : Sg * inst Sg => P ns.2) subs → P (Inst decl subs cl).
  Fixpoint inst_ind' (i : inst Sg) : P i :=
    match i with
    | Inst decl subs cl =>
        Hstep decl subs cl
          ((fix go (l : list (Sg * inst Sg)) : Forall (fun ns : Sg * inst Sg => P ns.2) l :=
              match l with
              | [] => @List.Forall_nil _ _
              | (n, s) :: l' => @List.Forall_cons _ (fun ns : Sg * inst Sg => P ns.2) (n, s) l' (inst_ind' s) (go l')
              end) subs)
    end.
End InstInd.

Section Flat.
Context {Sg N : Type} `{!Naming Sg N}.
Lemma flat_clauses_unfold pre d subs cl :
  flat_clauses pre (Inst d subs cl) =
  flat_map (fun ns : Sg * inst Sg => flat_clauses (pre ++ [ns.1]) ns.2) subs ++ map (flat_clause pre) cl.
Proof. simpl. f_equal. induction subs as [|[n s] subs IH]; [done|]. simpl. by rewrite IH. Qed.

Lemma flat_flows_unfold pre d subs cl :
  flat_flows pre (Inst d subs cl) =
  flat_map (flows_of pre) d ++ flat_map (fun ns : Sg * inst Sg => flat_flows (pre ++ [ns.1]) ns.2) subs.
Proof. simpl. f_equal. induction subs as [|[n s] subs IH]; [done|]. simpl. by rewrite IH. Qed.
End Flat.

Definition vars_ok (vs : list (seg * kind)) : Prop := Forall (fun v : seg * kind => seg_ok dot v.1) vs.
Definition cref_ok (r : cref seg) : Prop :=
  match r with CRef None x => seg_ok dot x | CRef (Some c) x => seg_ok dot c ∧ seg_ok dot x end.

(* every identifier of the instance tree is non-empty and contains no '.' *)
Fixpoint inst_ok (i : inst seg) : Prop :=
  match i with
  | Inst decl subs cl =>
      Forall (fun d : seg * list (seg * kind) => seg_ok dot d.1 ∧ vars_ok d.2) decl ∧
      Forall (fun c : clause seg => cref_ok (c_l c) ∧ cref_ok (c_r c) ∧ vars_ok (c_vars c)) cl ∧
      (fix go (l : list (seg * inst seg)) : Prop :=
         match l with [] => True | (n, s) :: l' => seg_ok dot n ∧ inst_ok s ∧ go l' end) subs
  end.

Lemma inst_ok_unfold decl subs cl :
  inst_ok (Inst decl subs cl) ↔
  Forall (fun d : seg * list (seg * kind) => seg_ok dot d.1 ∧ vars_ok d.2) decl ∧
  Forall (fun c : clause seg => cref_ok (c_l c) ∧ cref_ok (c_r c) ∧ vars_ok (c_vars c)) cl ∧
  Forall (fun ns : seg * inst seg => seg_ok dot ns.1 ∧ inst_ok ns.2) subs.
Proof.
  simpl. do 2 apply and_iff_compat_l. induction subs as [|[n s] subs IH]; [done|].
  by rewrite Forall_cons, IH, (assoc and).
Qed.

(* seg and str are both list ascii, so the Naming instance is chosen by the result type alone:
   list (list seg) picks path_naming (structured names: fcP, ffP), str picks str_naming (names as
   pymoca holds them: rowsS, and the ascriptions `: list fclauseS`, `: list str` below) *)
Definition fcP (pre : list seg) (i : inst seg) : list fclauseP := flat_clauses pre i.
Definition ffP (pre : list seg) (i : inst seg) : list (list seg) := flat_flows pre i.
Definition rowsS (i : inst seg) : list (list (str * Z)) := model_rows i.

Lemma flat_clauses_str pre i : (flat_clauses pre i : list fclauseS) = map renC (fcP pre i).
Proof.
  revert pre. induction i as [decl subs cl IHs] using inst_ind'. intros pre.
  unfold fcP. rewrite !flat_clauses_unfold, map_app, map_map. f_equal.
  - apply flat_map_fmap. eapply Forall_impl; [exact IHs|]. intros [n s] IH. apply IH.
  - apply map_ext. intros c. by destruct c as [[[?|] ?] [[?|] ?] ?].
Qed.

(* no side condition: the name that is extended is pre ++ [d.1], never empty *)
Lemma flows_of_str pre (d : seg * list (seg * kind)) :
  (flows_of pre d : list str) = map sjoin (flows_of pre d).
Proof.
  unfold flows_of. rewrite list_fmap_omap. apply list_omap_ext, Forall_Forall2_diag, Forall_true.
  intros [x k]. simpl. case_decide; [|done]. simpl. f_equal. symmetry. apply join_snoc. by destruct pre.
Qed.

Lemma flat_flows_str pre i : (flat_flows pre i : list str) = map sjoin (ffP pre i).
Proof.
  revert pre. induction i as [decl subs cl IHs] using inst_ind'. intros pre.
  unfold ffP. rewrite !flat_flows_unfold, map_app. f_equal.
  - apply flat_map_fmap, Forall_true. intros d. apply flows_of_str.
  - apply flat_map_fmap. eapply Forall_impl; [exact IHs|]. intros [n s] IH. apply IH.
Qed.

Lemma flat_ref_ok pre (r : cref seg) :
  path_ok dot pre → cref_ok r → name_ok (flat_ref pre r : list seg * bool).1.
Proof.
  intros Hp Hr. destruct r as [[c|] x]; simpl in *; [|by apply name_ok_snoc].
  destruct Hr as [Hc Hx]. rewrite (cons_middle c pre [x]), (assoc_L (++)).
  apply name_ok_snoc; [apply name_ok_snoc|]; done.
Qed.

Lemma flows_of_ok pre (d : seg * list (seg * kind)) :
  path_ok dot pre → seg_ok dot d.1 → vars_ok d.2 → Forall name_ok (flows_of pre d : list (list seg)).
Proof.
  intros Hp Hd Hv. apply Forall_forall. intros y ([x k] & Hx & Hy)%elem_of_list_omap.
  simpl in Hy. case_decide; [|done]. injection Hy as <-.
  apply name_ok_snoc; [by apply name_ok_snoc|]. apply (proj1 (Forall_forall _ _) Hv _ Hx).
Qed.

Lemma flat_ok i pre :
  path_ok dot pre → inst_ok i → Forall clause_ok (fcP pre i) ∧ Forall name_ok (ffP pre i).
Proof.
  revert pre. induction i as [decl subs cl IHs] using inst_ind'.
  intros pre Hpre (Hd & Hc & Hs)%inst_ok_unfold.
  assert (Hsub : Forall (fun ns : seg * inst seg =>
            Forall clause_ok (fcP (pre ++ [ns.1]) ns.2) ∧ Forall name_ok (ffP (pre ++ [ns.1]) ns.2)) subs).
  { apply Forall_forall. intros [n s] Hns. rewrite Forall_forall in IHs, Hs.
    destruct (Hs _ Hns) as [Hn Hsok]. apply (IHs _ Hns); [|done].
    by apply name_ok_snoc. }
  apply Forall_and in Hsub as [Hsub1 Hsub2].
  unfold fcP, ffP. rewrite flat_clauses_unfold, flat_flows_unfold. split; apply Forall_app; split.
  - by apply Forall_flat_map.
  - apply Forall_map. eapply Forall_impl; [exact Hc|]. intros c (Hl & Hr & Hv).
    split; [by apply flat_ref_ok|]. split; [by apply flat_ref_ok|done].
  - apply Forall_flat_map. eapply Forall_impl; [exact Hd|]. intros d [Hn Hv]. by apply flows_of_ok.
  - by apply Forall_flat_map.
Qed.
