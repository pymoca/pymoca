(* C12 — proofs: non-interference of the three representation flags in the model of
   Model/C12_options.v.  The evaluation strategies are Section variables; the Section
   hypotheses are CasADi's contract (TRUSTED, listed in the manifest's level_note):
     mapS_ext    a mapped function gives, whatever the parallelisation mode, results that
                 depend only on the extension of the mapped body
     imapS_ext   the same for the integer index expression of a loop
     callS_ext   a call gives, inlined or not, a result that depends only on the extension
                 of the called function
     icallS_ext  the same for get_integer
     expandS_ext expand() of a function is extensionally the function
     callMS_ext  callS_ext for functions whose arguments are whole arrays (a matrix, a vector)
                 and a scalar *)
From Coq Require Import ZArith QArith Qcanon List Bool Arith Lia.
Import ListNotations.
From PV Require Import Model.C11_residual Model.C12_options.
Open Scope Qc_scope.

Lemma fold_left_ext {A B} (f g : A -> B -> A) (l : list B) (a : A) :
  (forall x y, f x y = g x y) -> fold_left f l a = fold_left g l a.
Proof. intros H. revert a. induction l as [|y l IH]; intros a; simpl; [reflexivity|]. rewrite H. apply IH. Qed.

Lemma flat_map_ext' {A B} (f g : A -> list B) (l : list A) :
  (forall x, In x l -> f x = g x) -> flat_map f l = flat_map g l.
Proof.
  induction l as [|x l IH]; intros H; simpl; [reflexivity|].
  rewrite (H x (or_introl eq_refl)). f_equal. apply IH. intros y Hy. apply H. right. exact Hy.
Qed.

Lemma fun_lookup_map {A B} (h : A -> B) (l : list (nat * A)) f :
  fun_lookup (map (fun nf => (fst nf, h (snd nf))) l) f = option_map h (fun_lookup l f).
Proof.
  induction l as [|[g v] l IH]; cbn [map fun_lookup fst snd]; [reflexivity|].
  destruct (Nat.eqb f g); [reflexivity|exact IH].
Qed.

Lemma flat_map_app2 {A B} (f g : A -> list B) l1 l2 r1 r2 :
  flat_map f l1 = flat_map g l2 -> flat_map f r1 = flat_map g r2 -> flat_map f (l1 ++ r1) = flat_map g (l2 ++ r2).
Proof. intros Hl Hr. rewrite !flat_map_app, Hl, Hr. reflexivity. Qed.

Section Strategies.
Variable mapS : mapmode -> (Z -> nat -> env -> list (option Qc)) -> list Z -> env -> list (list (option Qc)).
Variable imapS : mapmode -> (Z -> Z) -> list Z -> list Z.
Variable callS : callmode -> (Qc -> Qc -> nat -> option Qc) -> Qc -> Qc -> nat -> option Qc.
Variable icallS : callmode -> (Z -> Z) -> Z -> Z.
Variable expandS : (env -> list (option Qc)) -> env -> list (option Qc).
Variable callMS : callmode -> ((Z -> Z -> Qc) -> (Z -> Qc) -> Qc -> nat -> option Qc) ->
                  (Z -> Z -> Qc) -> (Z -> Qc) -> Qc -> nat -> option Qc.

Section NI.
Hypothesis mapS_ext : forall m1 m2 b1 b2,
  (forall i p r, b1 i p r = b2 i p r) -> forall vals rho, mapS m1 b1 vals rho = mapS m2 b2 vals rho.
Hypothesis imapS_ext : forall m1 m2 f vals, imapS m1 f vals = imapS m2 f vals.
Hypothesis callS_ext : forall c1 c2 F1 F2,
  (forall a b k, F1 a b k = F2 a b k) -> forall a b k, callS c1 F1 a b k = callS c2 F2 a b k.
Hypothesis icallS_ext : forall c1 c2 F n, icallS c1 F n = icallS c2 F n.
Hypothesis expandS_ext : forall F rho, expandS F rho = F rho.
Hypothesis callMS_ext : forall c1 c2 F1 F2,
  (forall M v x k, F1 M v x k = F2 M v x k) -> forall M v x k, callMS c1 F1 M v x k = callMS c2 F2 M v x k.

Notation gen := (gen imapS icallS).
Notation dae := (dae_residual_function mapS callS expandS callMS).
Notation ini := (initial_residual_function mapS callS expandS callMS).
Notation meta := (variable_metadata_function mapS callS expandS callMS).
Notation del := (delay_arguments_function mapS callS expandS callMS).

Variable f1 f2 : flags.

Lemma get_integer_eq ipar b : get_integer icallS f1 ipar b = get_integer icallS f2 ipar b.
Proof. destruct b as [z|p k]; simpl; [reflexivity|]. destruct (k =? 0)%Z; [reflexivity|]. apply icallS_ext. Qed.

Lemma loop_vals_eq ipar lo hi : loop_vals icallS f1 ipar lo hi = loop_vals icallS f2 ipar lo hi.
Proof. unfold loop_vals. rewrite get_integer_eq. reflexivity. Qed.

Lemma gen_ref_eq vals r : gen_ref imapS f1 vals r = gen_ref imapS f2 vals r.
Proof.
  destruct r; simpl; try reflexivity.
  all: destruct vals as [vs|]; [|reflexivity].
  all: destruct (is_bare ix); [reflexivity|]. all: rewrite (imapS_ext (map_mode f1) (map_mode f2)); reflexivity.
Qed.

(* Two tables of callable functions that agree whatever the call mode.  Expressions and function
   bodies are evaluated under such a pair: no_calls inside a body, the generated tables at model
   level. *)
Definition callf_sim (c1 c2 : callmode -> nat -> Qc -> Qc -> nat -> option Qc) : Prop :=
  forall m1 m2 f x y k, c1 m1 f x y k = c2 m2 f x y k.

Definition callfm_sim (c1 c2 : callmode -> nat -> (Z -> Z -> Qc) -> (Z -> Qc) -> Qc -> nat -> option Qc) : Prop :=
  forall m1 m2 f M v x k, c1 m1 f M v x k = c2 m2 f M v x k.

Section Sim.
Variables (c1 c2 : callmode -> nat -> Qc -> Qc -> nat -> option Qc).
Variables (d1 d2 : callmode -> nat -> (Z -> Z -> Qc) -> (Z -> Qc) -> Qc -> nat -> option Qc).
Hypothesis (Hc : callf_sim c1 c2) (Hd : callfm_sim d1 d2).

Lemma geval_gen vals e :
  forall rho, geval c1 d1 (gen_x imapS f1 vals e) rho = geval c2 d2 (gen_x imapS f2 vals e) rho.
Proof.
  induction e as [q|r|a IHa|n a IHa b IHb|c IHc a IHa b IHb|f a IHa b IHb k|f A b x IHx k]; intros rho; simpl.
  - reflexivity.
  - rewrite gen_ref_eq. reflexivity.
  - rewrite IHa. reflexivity.
  - rewrite IHa, IHb. reflexivity.
  - rewrite IHc, IHa, IHb. reflexivity.
  - rewrite IHa, IHb.
    destruct (geval c2 d2 (gen_x imapS f2 vals a) rho); [|reflexivity].
    destruct (geval c2 d2 (gen_x imapS f2 vals b) rho); [|reflexivity].
    apply Hc.
  - rewrite IHx. destruct (geval c2 d2 (gen_x imapS f2 vals x) rho); [|reflexivity]. apply Hd.
Qed.

Lemma gexec1_gen ipar s rho :
  gexec1 mapS c1 d1 (gen_stmt imapS icallS f1 ipar s) rho = gexec1 mapS c2 d2 (gen_stmt imapS icallS f2 ipar s) rho.
Proof.
  destruct s as [v e|lo hi v e]; simpl.
  - rewrite geval_gen. reflexivity.
  - rewrite (loop_vals_eq ipar lo hi).
    apply fold_left_ext. intros acc p. unfold for_step. destruct acc as [r|]; [|reflexivity].
    (* the two maps differ in mode and body: mapS_ext, its side condition on the bodies left over *)
    erewrite mapS_ext; [reflexivity|]. intros i p' r0. cbn beta. rewrite geval_gen. reflexivity.
Qed.

Lemma gexec_gen ipar body :
  forall rho, gexec mapS c1 d1 (map (gen_stmt imapS icallS f1 ipar) body) rho
            = gexec mapS c2 d2 (map (gen_stmt imapS icallS f2 ipar) body) rho.
Proof.
  induction body as [|s body IH]; intros rho; simpl; [reflexivity|].
  rewrite gexec1_gen. destruct (gexec1 mapS c2 d2 _ rho); [apply IH|reflexivity].
Qed.


End Sim.

Lemma no_calls_sim : callf_sim no_calls no_calls.
Proof. intros m1 m2 f x y k. reflexivity. Qed.
Lemma no_callsM_sim : callfm_sim no_callsM no_callsM.
Proof. intros m1 m2 f M v x k. reflexivity. Qed.

Notation gen_funs fl ipar funs := (map (fun nf => (fst nf, gen_fun imapS icallS fl ipar (snd nf))) funs).

Lemma top_callf_gen ipar funs :
  callf_sim (top_callf mapS callS (gen_funs f1 ipar funs)) (top_callf mapS callS (gen_funs f2 ipar funs)).
Proof.
  intros m1 m2 f x y k. unfold top_callf. rewrite !fun_lookup_map.
  destruct (fun_lookup funs f) as [fd|]; [|reflexivity]. cbn [option_map].
  apply callS_ext. intros a b k'. unfold gfun_den, gen_fun. simpl.
  rewrite (gexec_gen _ _ _ _ no_calls_sim no_callsM_sim). reflexivity.
Qed.

Lemma top_callfm_gen ipar funs :
  callfm_sim (top_callfm mapS callMS (gen_funs f1 ipar funs)) (top_callfm mapS callMS (gen_funs f2 ipar funs)).
Proof.
  intros m1 m2 f M v x k. unfold top_callfm. rewrite !fun_lookup_map.
  destruct (fun_lookup funs f) as [fd|]; [|reflexivity]. cbn [option_map].
  apply callMS_ext. intros M' v' x' k'. unfold gfun_denM, gen_fun. simpl.
  rewrite (gexec_gen _ _ _ _ no_calls_sim no_callsM_sim). reflexivity.
Qed.

Lemma gev_sub ft mft a b rho :
  gev mapS callS callMS ft mft (sub a b) rho
  = match gev mapS callS callMS ft mft a rho, gev mapS callS callMS ft mft b rho with
    | Some x, Some y => ca_bin CSub x y
    | _, _ => None
    end.
Proof. reflexivity. Qed.

(* Equations, delay arguments and attributes are evaluated at model level, where calls go through
   the function tables; all that matters of the two tables is that calls through them agree. *)
Section Eqns.
Variable ft1 mft1 ft2 mft2 : list (nat * gfun).
Hypothesis Hft : callf_sim (top_callf mapS callS ft1) (top_callf mapS callS ft2).
Hypothesis Hmft : callfm_sim (top_callfm mapS callMS mft1) (top_callfm mapS callMS mft2).
Variable ipar : nat -> Z.
Variable db : nat.
Notation ev1 := (gev mapS callS callMS ft1 mft1).
Notation ev2 := (gev mapS callS callMS ft2 mft2).

Lemma gev_gen vals e rho : ev1 (gen_x imapS f1 vals e) rho = ev2 (gen_x imapS f2 vals e) rho.
Proof. unfold gev. apply geval_gen; assumption. Qed.

Lemma gen_eqns_cons fl k q qs :
  gen_eqns imapS icallS fl ipar db k (q :: qs) =
  let hd := gen_eqns imapS icallS fl ipar db k [q] in
  let tl := gen_eqns imapS icallS fl ipar db (if is_delay q then S k else k) qs in
  (fst hd ++ fst tl, snd hd ++ snd tl).
Proof.
  destruct q; cbn [gen_eqns is_delay]; destruct (gen_eqns _ _ _ _ _ _ qs); reflexivity.
Qed.

Lemma gen_eqns_eval qs : forall k rho,
  flat_map (fun q => geqn_eval mapS callS callMS ft1 mft1 q rho) (fst (gen_eqns imapS icallS f1 ipar db k qs))
  = flat_map (fun q => geqn_eval mapS callS callMS ft2 mft2 q rho) (fst (gen_eqns imapS icallS f2 ipar db k qs))
  /\
  flat_map (fun d => gdelay_eval mapS callS callMS ft1 mft1 d rho) (snd (gen_eqns imapS icallS f1 ipar db k qs))
  = flat_map (fun d => gdelay_eval mapS callS callMS ft2 mft2 d rho) (snd (gen_eqns imapS icallS f2 ipar db k qs)).
Proof.
  induction qs as [|q qs IH]; intros k rho; [split; reflexivity|].
  (* head [q] and tail, then one case per form of equation (the mapped ones by mapS_ext); the rewrite with
     explicit arguments, once per side: [q] is itself a cons *)
  rewrite (gen_eqns_cons f1 k q qs), (gen_eqns_cons f2 k q qs). cbn [fst snd].
  destruct (IH (if is_delay q then S k else k) rho) as [IH1 IH2].
  split; (apply flat_map_app2; [|assumption]).
  - destruct q as [l r|lo hi body|l e d|lo hi l e d]; cbn [gen_eqns gen_eqn fst flat_map geqn_eval].
    + rewrite !gev_sub, !gev_gen. reflexivity.
    + rewrite !map_length, (loop_vals_eq ipar lo hi). erewrite mapS_ext; [reflexivity|].
      intros i p r. rewrite !map_map. apply map_ext. intros lr. rewrite !gev_sub, !gev_gen. reflexivity.
    + rewrite !gev_sub, gev_gen. reflexivity.
    + rewrite (loop_vals_eq ipar lo hi). erewrite mapS_ext; [reflexivity|].
      intros i p r. cbn [map]. rewrite !gev_sub, gev_gen. reflexivity.
  - destruct q as [l r|lo hi body|l e d|lo hi l e d]; cbn [gen_eqns snd flat_map gdelay_eval].
    + reflexivity.
    + reflexivity.
    + rewrite !gev_gen. reflexivity.
    + rewrite gev_gen, (loop_vals_eq ipar lo hi). erewrite mapS_ext; [reflexivity|].
      intros i p r. rewrite gev_gen. reflexivity.
Qed.

Lemma gen_attrs_eval (decls : list sdecl) rho :
  flat_map (fun va => map (fun e => ev1 e rho) (snd va))
    (map (fun d => (C10.s_name (d_sym d), map (gen_x imapS f1 None) (d_attrs d))) decls)
  = flat_map (fun va => map (fun e => ev2 e rho) (snd va))
      (map (fun d => (C10.s_name (d_sym d), map (gen_x imapS f2 None) (d_attrs d))) decls).
Proof.
  induction decls as [|d ds IH]; cbn [map flat_map snd]; [reflexivity|].
  rewrite IH. f_equal. rewrite !map_map. apply map_ext. intros e. apply gev_gen.
Qed.
End Eqns.

Lemma c10_flat_eq m : c10_flat icallS f1 m = c10_flat icallS f2 m.
Proof.
  unfold c10_flat. f_equal. apply map_ext. intros d. unfold decl_sym.
  destruct (d_dim d) as [b|]; [|reflexivity]. rewrite get_integer_eq. reflexivity.
Qed.

Lemma delay_states_eq m : g_delay_states (gen f1 m) = g_delay_states (gen f2 m).
Proof. reflexivity. Qed.

Lemma expand_wrap g F rho : expand_mx_func expandS g F rho = F rho.
Proof. unfold expand_mx_func. destruct (g_expand g); [apply expandS_ext|reflexivity]. Qed.

Definition with_expand (e : bool) (g : gmodel) : gmodel :=
  mkGmodel (g_lists g) (g_delay_states g) (g_types g) (g_attrs g) (g_funs g) (g_mfuns g) (g_eqs g) (g_ieqs g)
           (g_delays g) e.

Lemma set_expand_if (b : bool) fl m : (if b then set_expand (gen fl m) else gen fl m) = with_expand b (gen fl m).
Proof. destruct b; reflexivity. Qed.

Lemma dae_gen e1 e2 m rho : dae (with_expand e1 (gen f1 m)) rho = dae (with_expand e2 (gen f2 m)) rho.
Proof.
  unfold dae_residual_function. rewrite !expand_wrap.
  apply gen_eqns_eval; [apply top_callf_gen|apply top_callfm_gen].
Qed.




(* the model that transfer_model returns and the four functions one can ask it for *)
Definition same_meaning (g1 g2 : gmodel) : Prop :=
  g_lists g1 = g_lists g2 /\ g_delay_states g1 = g_delay_states g2 /\ g_types g1 = g_types g2 /\
  (forall rho, dae g1 rho = dae g2 rho) /\
  (forall rho, ini g1 rho = ini g2 rho) /\
  (forall rho, meta g1 rho = meta g2 rho) /\
  (forall rho, del g1 rho = del g2 rho).

Lemma gen_same_meaning e1 e2 m : same_meaning (with_expand e1 (gen f1 m)) (with_expand e2 (gen f2 m)).
Proof.
  pose proof (top_callf_gen (s_ipar m) (s_funs m)) as Hf. pose proof (top_callfm_gen (s_ipar m) (s_mfuns m)) as Hm.
  unfold same_meaning, initial_residual_function, variable_metadata_function, delay_arguments_function.
  cbn [with_expand C12_options.gen g_lists g_types g_delay_states]. rewrite c10_flat_eq.
  split; [reflexivity |]. split; [apply delay_states_eq |]. split; [reflexivity |].
  split; [intros rho; apply dae_gen |].
  split; [intros rho; rewrite !expand_wrap; apply gen_eqns_eval; assumption |].
  split; intros rho; rewrite !expand_wrap.
  - apply gen_attrs_eval; assumption.
  - apply flat_map_app2; (apply gen_eqns_eval; assumption).
Qed.

End NI.

Section Pipeline.
Variable P_expand_vectors P_expand_simplify P_scalar P_eliminable : gmodel -> gmodel.
Variable P_aliases : bool -> gmodel -> gmodel.

Definition strategies_ok : Prop :=
  (forall m1 m2 b1 b2, (forall i p r, b1 i p r = b2 i p r) ->
     forall vals rho, mapS m1 b1 vals rho = mapS m2 b2 vals rho) /\
  (forall m1 m2 f vals, imapS m1 f vals = imapS m2 f vals) /\
  (forall c1 c2 F1 F2, (forall a b k, F1 a b k = F2 a b k) ->
     forall a b k, callS c1 F1 a b k = callS c2 F2 a b k) /\
  (forall c1 c2 F n, icallS c1 F n = icallS c2 F n) /\
  (forall F rho, expandS F rho = F rho) /\
  (forall c1 c2 F1 F2, (forall M v x k, F1 M v x k = F2 M v x k) ->
     forall M v x k, callMS c1 F1 M v x k = callMS c2 F2 M v x k).

Notation compile := (compile imapS icallS P_expand_vectors P_expand_simplify P_scalar P_eliminable P_aliases).
Notation gen := (gen imapS icallS).

(* with no simplification option and no cache, simplify only installs the expansion *)
Lemma compile_plain fl o m : no_simpl o = true ->
  compile fl o m = Ok (if expand_mx fl then set_expand (gen fl m) else gen fl m).
Proof.
  destruct o as [ev el da sp ca]. unfold no_simpl. cbn [o_expand_vectors o_eliminable o_detect_aliases o_scalar_passes o_cache].
  destruct ev; [discriminate|]. destruct el; [discriminate|]. destruct da; [discriminate|].
  destruct sp; [discriminate|]. destruct ca; [discriminate|]. intros _. reflexivity.
Qed.

Lemma noninterference (Hs : strategies_ok) (o : other) (m : smodel) (f1 f2 : flags) :
  no_simpl o = true ->
  exists g1 g2, compile f1 o m = Ok g1 /\ compile f2 o m = Ok g2 /\ same_meaning g1 g2.
Proof.
  destruct Hs as (Hmap & Himap & Hcall & Hicall & Hexp & HcallM). intros Ho.
  eexists. eexists. split; [apply (compile_plain f1 o m Ho)|]. split; [apply (compile_plain f2 o m Ho)|].
  rewrite !set_expand_if. apply gen_same_meaning; assumption.
Qed.

Fixpoint call_free (e : sx) : bool :=
  match e with
  | SNum _ | SRef _ => true
  | SNeg a => call_free a
  | SBin _ a b => call_free a && call_free b
  | SIf c a b => call_free c && call_free a && call_free b
  | SCall _ _ _ _ => false
  | SCallM _ _ _ _ _ => false
  end.

Lemma gen_x_literal (Himap : forall m1 m2 f vals, imapS m1 f vals = imapS m2 f vals) f1 f2 vals e :
  call_free e = true -> gen_x imapS f1 vals e = gen_x imapS f2 vals e.
Proof.
  induction e as [q|r|a IHa|n a IHa b IHb|c IHc a IHa b IHb|f a IHa b IHb k|f A b x IHx k]; simpl; intros H.
  - reflexivity.
  - rewrite (gen_ref_eq Himap f1 f2). reflexivity.
  - rewrite IHa by exact H. reflexivity.
  - apply andb_prop in H. destruct H as [Ha Hb]. rewrite IHa, IHb by assumption. reflexivity.
  - apply andb_prop in H. destruct H as [H Hb]. apply andb_prop in H. destruct H as [Hc Ha].
    rewrite IHc, IHa, IHb by assumption. reflexivity.
  - discriminate.
  - discriminate.
Qed.

Lemma metadata_literal (Hs : strategies_ok) (m : smodel) (f1 f2 : flags) :
  forallb (fun d => forallb call_free (d_attrs d)) (s_decls m) = true ->
  g_attrs (gen f1 m) = g_attrs (gen f2 m).
Proof.
  destruct Hs as (_ & Himap & _). intros H. rewrite forallb_forall in H.
  unfold C12_options.gen. cbn [g_attrs].
  apply map_ext_in. intros d Hd. f_equal. apply map_ext_in. intros e He.
  apply (gen_x_literal Himap). apply (proj1 (forallb_forall _ _) (H d Hd)). exact He.
Qed.


End Pipeline.
End Strategies.
