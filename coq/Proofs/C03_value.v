(* C03 — values: the tree the pymoca grammar builds (sign on the left-most factor) evaluates like the
   intended tree; literals denote their positional value; str_value keeps the raw text, which is the
   decoded text when there is no backslash and is not when there is an escape sequence (a backslash
   followed by a character `unescape` knows). *)
From Coq Require Import List Arith NArith ZArith QArith Qcanon Qpower Qfield Bool Lia.
From Coq Require String Ascii.
From PV Require Import Model.C03_prec Lib.C03_spec.
Import ListNotations.
Local Open Scope nat_scope.

(* Why moving the sign keeps the value: (-x)*y = -(x*y) and (-x)/y = -(x/y) (also for the element-wise
   forms); `+` changes nothing, and an operand that is not a number gives VErr on both sides. *)
Lemma Qc_neg_mul (x y : Qc) : (- x * y = - (x * y))%Qc.
Proof. ring. Qed.
Lemma Qc_neg_div (x y : Qc) : (- x / y = - (x / y))%Qc.
Proof. unfold Qcdiv. ring. Qed.
Lemma ev_bin_sign : forall o m, is_sign o = true -> is_mul m = true ->
  forall a b : val, ev_bin m (ev_un o a) b = ev_un o (ev_bin m a b).
Proof.
  intros o m Ho Hm a b.
  destruct o; try discriminate Ho; destruct m; try discriminate Hm; destruct a, b; try reflexivity;
    cbn [ev_un ev_bin]; rewrite ?Qc_neg_mul, ?Qc_neg_div; reflexivity.
Qed.

Definition sign_ok (pend : option sym) : Prop :=
  match pend with None => True | Some o => is_sign o = true end.

Section Value.
  Variable rho : positive -> val.
  Variable fn : fname -> list val -> val.

  Lemma eval_wrap : forall pend x,
    eval rho fn (wrap pend x) =
    match pend with Some o => ev_un o (eval rho fn x) | None => eval rho fn x end.
  Proof. destruct pend; reflexivity. Qed.

  Lemma wrap_congr : forall pend x y,
    eval rho fn x = eval rho fn y -> eval rho fn (wrap pend x) = eval rho fn (wrap pend y).
  Proof. intros pend x y H. rewrite !eval_wrap. rewrite H. reflexivity. Qed.

  Lemma map_eval_ext : forall (A : Type) (P : A -> Prop) (f g : A -> expr) (l : list A),
    Forall P l -> (forall x, P x -> eval rho fn (f x) = eval rho fn (g x)) ->
    map (eval rho fn) (map f l) = map (eval rho fn) (map g l).
  Proof.
    intros A P f g l H HP. rewrite !map_map. apply map_ext_Forall. eapply Forall_impl; [exact HP | exact H].
  Qed.

  (* a pending sign ends up on the left-most factor of a product, and comes out again by ev_bin_sign *)
  Lemma rs_value : forall (e : sexpr) (pend : option sym), sign_ok pend ->
    eval rho fn (rs pend e) = eval rho fn (wrap pend (strip e)).
  Proof.
    induction e as [a | e IHe | o e IHe | m l r IHl IHr | c t el e IHc IHt IHel IHe | f args IHargs]
      using sexpr_ind'; intros pend Hp; cbn [rs strip].
    - reflexivity.
    - apply wrap_congr, (IHe None I).
    - rewrite !eval_wrap. destruct (is_sign o) eqn:Ho.
      + rewrite (IHe (Some o) Ho). reflexivity.
      + cbn [eval]. rewrite (IHe None I). reflexivity.
    - destruct (is_mul m) eqn:Hm.
      + cbn [eval]. rewrite (IHr None I), (IHl pend Hp), !eval_wrap.
        destruct pend as [o|]; [apply ev_bin_sign; assumption | reflexivity].
      + apply wrap_congr. cbn [eval]. rewrite (IHl None I), (IHr None I). reflexivity.
    - apply wrap_congr. cbn [eval]. f_equal; cbn [map]; rewrite ?map_app; cbn [map].
      + rewrite (IHc None I). f_equal. apply (map_eval_ext _ _ _ _ _ IHel).
        intros [c' b'] [H1 _]. exact (H1 None I).
      + rewrite (IHt None I), (IHe None I). do 2 f_equal. apply (map_eval_ext _ _ _ _ _ IHel).
        intros [c' b'] [_ H2]. exact (H2 None I).
    - apply wrap_congr. cbn [eval]. f_equal. apply (map_eval_ext _ _ _ _ _ IHargs). intros x Hx. exact (Hx None I).
  Qed.

  Theorem value_resign : forall e : sexpr, eval rho fn (resign e) = eval rho fn (strip e).
  Proof. intro e. unfold resign. exact (rs_value e None I). Qed.
End Value.

(* positional notation, most significant digit first *)
Fixpoint posval (ds : list nat) : N :=
  match ds with
  | [] => 0%N
  | d :: r => (N.of_nat d * 10 ^ N.of_nat (length r) + posval r)%N
  end.

Lemma fold_horner : forall ds a,
  fold_left (fun a d => (10 * a + N.of_nat d)%N) ds a
  = (a * 10 ^ N.of_nat (length ds) + posval ds)%N.
Proof.
  induction ds as [| d r IH]; intro a.
  - cbn [fold_left posval length]. change (N.of_nat 0) with 0%N.
    rewrite N.pow_0_r. ring.
  - cbn [fold_left posval length]. rewrite IH.
    rewrite Nat2N.inj_succ, N.pow_succ_r'. ring.
Qed.

Theorem horner_posval : forall ds, horner ds = posval ds.
Proof.
  intro ds. unfold horner. rewrite fold_horner. ring.
Qed.

Lemma posval_app : forall a b,
  posval (a ++ b) = (posval a * 10 ^ N.of_nat (length b) + posval b)%N.
Proof.
  induction a as [| d r IH]; intro b.
  - cbn [app posval]. ring.
  - cbn [app posval]. rewrite IH, app_length, Nat2N.inj_add, N.pow_add_r. ring.
Qed.

Theorem literal_int : forall ds, num_value (mkNum ds None None) = VInt (posval ds).
Proof.
  intro ds. unfold num_value. cbn [n_int n_frac n_exp]. rewrite horner_posval. reflexivity.
Qed.

Definition frac_digits (fr : option digits) : digits :=
  match fr with Some d => d | None => [] end.

(* the decimal value of  ip [. fd] [e ex]  *)
Definition dec_value (ip : digits) (fr : option digits) (ex : option (bool * digits)) : Q :=
  ((inject_Z (Z.of_N (posval ip))
    + inject_Z (Z.of_N (posval (frac_digits fr)))
      / Qpower (10 # 1) (Z.of_nat (length (frac_digits fr))))
   * Qpower (10 # 1) (exp_of ex))%Q.

Lemma ten_neq_0 : ~ (10 # 1 == 0)%Q.
Proof. unfold Qeq. simpl. discriminate. Qed.

Lemma real_core : forall (ip fd : digits) (z : Z),
  (inject_Z (Z.of_N (horner (ip ++ fd))) * Qpower (10 # 1) (z - Z.of_nat (length fd))
   == (inject_Z (Z.of_N (posval ip))
       + inject_Z (Z.of_N (posval fd)) / Qpower (10 # 1) (Z.of_nat (length fd)))
      * Qpower (10 # 1) z)%Q.
Proof.
  intros ip fd z.
  rewrite horner_posval, posval_app.
  rewrite N2Z.inj_add, N2Z.inj_mul, N2Z.inj_pow, nat_N_Z.
  change (Z.of_N 10) with 10%Z.
  rewrite inject_Z_plus, inject_Z_mult.
  rewrite Zpower_Qpower by apply Nat2Z.is_nonneg.
  change (inject_Z 10) with (10 # 1).
  unfold Z.sub. rewrite Qpower_plus by exact ten_neq_0. rewrite Qpower_opp.
  assert (HP : ~ (Qpower (10 # 1) (Z.of_nat (length fd)) == 0)%Q).
  { apply Qpower_not_0. exact ten_neq_0. }
  set (P := Qpower (10 # 1) (Z.of_nat (length fd))) in *.
  set (E := Qpower (10 # 1) z).
  field. exact HP.
Qed.

Theorem literal_real : forall ip fr ex, (fr <> None \/ ex <> None) ->
  exists q, num_value (mkNum ip fr ex) = VReal q /\ Qeq q (dec_value ip fr ex).
Proof.
  intros ip fr ex H.
  exists (inject_Z (Z.of_N (horner (ip ++ frac_digits fr)))
          * Qpower (10 # 1) (exp_of ex - Z.of_nat (length (frac_digits fr))))%Q.
  split.
  - destruct fr, ex; try reflexivity. destruct H; congruence.
  - unfold dec_value. apply real_core.
Qed.

Lemma exp_of_posval : forall ex,
  exp_of ex = match ex with
              | None => 0%Z
              | Some (neg, ds) => if neg then (- Z.of_N (posval ds))%Z else Z.of_N (posval ds)
              end.
Proof. intros [[neg ds]|]; simpl; [rewrite horner_posval|]; reflexivity. Qed.

Import Ascii.

Definition is_bs (c : ascii) : bool := N.eqb (N_of_ascii c) 92%N.

(* character denoted by  \d , None when  \d  is not an escape sequence *)
Definition unescape (d : ascii) : option ascii :=
  match N_of_ascii d with
  | 39%N | 34%N | 63%N | 92%N => Some d          (* quote, double quote, question mark, backslash *)
  | 97%N => Some (ascii_of_N 7)                  (* \a *)
  | 98%N => Some (ascii_of_N 8)                  (* \b *)
  | 102%N => Some (ascii_of_N 12)                (* \f *)
  | 110%N => Some (ascii_of_N 10)                (* \n *)
  | 114%N => Some (ascii_of_N 13)                (* \r *)
  | 116%N => Some (ascii_of_N 9)                 (* \t *)
  | 118%N => Some (ascii_of_N 11)                (* \v *)
  | _ => None
  end.

Fixpoint decode (s : string) : string :=
  match s with
  | String.EmptyString => String.EmptyString
  | String.String c r =>
      if is_bs c then
        match r with
        | String.EmptyString => String.String c String.EmptyString
        | String.String d r' =>
            match unescape d with
            | Some x => String.String x (decode r')
            | None => String.String c (decode r)
            end
        end
      else String.String c (decode r)
  end.

Fixpoint escape_free (s : string) : bool :=
  match s with
  | String.EmptyString => true
  | String.String c r => negb (is_bs c) && escape_free r
  end.

Lemma decode_escape_free : forall raw, escape_free raw = true -> decode raw = raw.
Proof.
  induction raw as [| c r IH]; intro H.
  - reflexivity.
  - cbn [escape_free] in H. apply andb_true_iff in H. destruct H as [Hc Hr].
    cbn [decode]. destruct (is_bs c); [discriminate Hc|].
    rewrite (IH Hr). reflexivity.
Qed.

Theorem string_escape_free : forall raw,
  escape_free raw = true -> str_value raw = VStr (decode raw).
Proof.
  intros raw H. unfold str_value. rewrite (decode_escape_free raw H). reflexivity.
Qed.

(* the four characters  a, backslash, double quote, b  *)
Definition esc_witness : string :=
  String.String (ascii_of_N 97) (String.String (ascii_of_N 92)
    (String.String (ascii_of_N 34) (String.String (ascii_of_N 98) String.EmptyString))).

(* has_escape raw: raw contains a backslash followed by a character that `unescape` recognises
   (same case split as decode: scanning never skips a character before it answers true) *)
Fixpoint has_escape (s : string) : bool :=
  match s with
  | String.EmptyString => false
  | String.String c r =>
      if is_bs c then
        match r with
        | String.EmptyString => false
        | String.String d _ =>
            match unescape d with
            | Some _ => true
            | None => has_escape r
            end
        end
      else has_escape r
  end.

(* decoding never lengthens the text, and shortens it as soon as there is one escape sequence;
   decode steps over two characters at an escape, hence the induction on a bound of the length *)
Lemma decode_len : forall n s, String.length s <= n ->
  String.length (decode s) + (if has_escape s then 1 else 0) <= String.length s.
Proof.
  induction n as [| n IH]; intros [| c r] Hn; cbn [String.length] in Hn; try (cbn; lia).
  cbn [decode has_escape]. destruct (is_bs c).
  - destruct r as [| d r']; [cbn; lia |]. destruct (unescape d).
    + pose proof (IH r'). cbn [String.length] in *. lia.
    + pose proof (IH (String.String d r')). cbn [String.length] in *. lia.
  - pose proof (IH r). cbn [String.length]. lia.
Qed.

Theorem decode_length_le : forall s, String.length (decode s) <= String.length s.
Proof. intro s. pose proof (decode_len _ s (le_n _)). lia. Qed.

Theorem string_escape_always_wrong : forall raw,
  has_escape raw = true -> str_value raw <> VStr (decode raw).
Proof.
  intros raw H E. unfold str_value in E. injection E as E'.
  pose proof (decode_len _ raw (le_n _)) as HL. rewrite H in HL.
  apply (f_equal String.length) in E'. lia.
Qed.

Theorem string_escape_refuted : exists raw, str_value raw <> VStr (decode raw).
Proof. exists esc_witness. apply string_escape_always_wrong. reflexivity. Qed.

Lemma has_escape_not_free : forall s, has_escape s = true -> escape_free s = false.
Proof.
  induction s as [| c r IH]; intro H.
  - discriminate H.
  - cbn [has_escape] in H. cbn [escape_free]. destruct (is_bs c); [reflexivity |].
    cbn. exact (IH H).
Qed.

Theorem num_value_lt_std : forall lt n, listener_ok lt = true -> num_value_lt lt n = num_value n.
Proof. intros lt n H. apply listener_ok_eq in H. subst lt. reflexivity. Qed.

Theorem str_value_lt_std : forall lt raw, listener_ok lt = true -> str_value_lt lt raw = str_value raw.
Proof. intros lt raw H. apply listener_ok_eq in H. subst lt. reflexivity. Qed.

(* exactly what the code does: the raw body between the quotes *)
Theorem string_raw : forall lt raw, listener_ok lt = true -> str_value_lt lt raw = VStr raw.
Proof. intros lt raw H. rewrite (str_value_lt_std lt raw H). reflexivity. Qed.

Theorem literal_int_lt : forall lt ds, listener_ok lt = true ->
  num_value_lt lt (mkNum ds None None) = VInt (posval ds).
Proof. intros lt ds H. rewrite (num_value_lt_std lt _ H). apply literal_int. Qed.

Theorem literal_real_lt : forall lt ip fr ex, listener_ok lt = true -> (fr <> None \/ ex <> None) ->
  exists q, num_value_lt lt (mkNum ip fr ex) = VReal q /\ Qeq q (dec_value ip fr ex).
Proof. intros lt ip fr ex Hlt Hreal. rewrite (num_value_lt_std lt _ Hlt). apply literal_real. exact Hreal. Qed.

Theorem string_escape_always_wrong_lt : forall lt raw, listener_ok lt = true ->
  has_escape raw = true -> str_value_lt lt raw <> VStr (decode raw).
Proof. intros lt raw H. rewrite (str_value_lt_std lt raw H). apply string_escape_always_wrong. Qed.

(* sanity: the decoder on the witness and on  x \ n \ \ \ q  *)
Example decode_witness :
  decode esc_witness
  = String.String (ascii_of_N 97) (String.String (ascii_of_N 34)
      (String.String (ascii_of_N 98) String.EmptyString)).
Proof. vm_compute. reflexivity. Qed.

Example decode_mixed :
  decode (String.String (ascii_of_N 120) (String.String (ascii_of_N 92) (String.String (ascii_of_N 110)
          (String.String (ascii_of_N 92) (String.String (ascii_of_N 92)
          (String.String (ascii_of_N 92) (String.String (ascii_of_N 113) String.EmptyString)))))))
  = String.String (ascii_of_N 120) (String.String (ascii_of_N 10) (String.String (ascii_of_N 92)
      (String.String (ascii_of_N 92) (String.String (ascii_of_N 113) String.EmptyString)))).
Proof. vm_compute. reflexivity. Qed.

Print Assumptions value_resign.
Print Assumptions horner_posval.
Print Assumptions literal_int.
Print Assumptions literal_real.
Print Assumptions string_escape_free.
Print Assumptions string_escape_refuted.
Print Assumptions string_escape_always_wrong.
Print Assumptions decode_length_le.
Print Assumptions num_value_lt_std.
Print Assumptions str_value_lt_std.
Print Assumptions string_raw.
Print Assumptions literal_int_lt.
Print Assumptions literal_real_lt.
Print Assumptions string_escape_always_wrong_lt.
