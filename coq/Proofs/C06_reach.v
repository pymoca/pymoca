(* C06 — well-formedness is an invariant of every operation of the model, so the theorems of
   Proofs/C06_deepcopy.v hold in every world reachable from parsed trees; and the history-level
   independence (projection) theorem. *)
From Coq Require Import List Arith Bool.
From PV Require Import Lib.ObjGraph Model.C06_deepcopy Proofs.C06_deepcopy.
Import ListNotations.

(* a tree as the parser (ast.Tree.update_parent_refs) and the operations below leave it: the root
   first; every other class after its owner, with parent = its owner's address; no foreign hooks;
   one entry per path; the root's parent, if any, is an object of an OLDER tree (a detached copy
   made by find_class(copy=True) keeps the original parent) *)
Definition wf_tree (ti : nat) (t : tree) : Prop :=
  exists i0 rest, t = ([], i0) :: rest /\ hk i0 = None /\
    (forall pa, par i0 = Some pa -> fst pa < ti) /\
    wf_rest ti [] [[]] rest /\ NoDup (map fst t).
Definition wf_world (w : world) : Prop := forall ti t, nth_error w ti = Some t -> wf_tree ti t.

Lemma wf_rest_incl ti p : forall l s1 s2, incl s1 s2 -> wf_rest ti p s1 l -> wf_rest ti p s2 l.
Proof.
  induction l as [|[r i] l IH]; simpl; intros s1 s2 Hi H; auto.
  destruct H as (Hr & Hh & Hp & Hin & H). repeat split; auto.
  apply (IH (r :: s1)); auto. intros x [<-|Hx]; [left; reflexivity|right; auto].
Qed.

Lemma wf_rest_nonnil ti p : forall rest seen, wf_rest ti p seen rest -> ~ In [] (map fst rest).
Proof.
  intros rest seen H Hin. apply in_map_iff in Hin. destruct Hin as ([r i] & E & Hin). cbn [fst] in E. subst r.
  destruct (wf_rest_nonroot _ _ _ _ _ _ H Hin) as (Hr & _). exact (Hr eq_refl).
Qed.

Lemma strip_owner x q : q <> [] -> strip x q = None -> strip x (removelast q) = None.
Proof.
  intros Hq H. destruct (strip x (removelast q)) as [r|] eqn:E; [|reflexivity].
  apply strip_sound in E. rewrite (@app_removelast_last key q 0 Hq), E, <- app_assoc, strip_app in H. discriminate H.
Qed.

Lemma removelast_neq (p : path) : p <> [] -> removelast p <> p.
Proof.
  intros Hp E. pose proof (@app_removelast_last key p 0 Hp) as H. rewrite E in H.
  rewrite <- (app_nil_r p) in H at 1. apply app_inv_head in H. discriminate H.
Qed.

Lemma assoc_None_notin {B} p (t : list (path * B)) : assoc p t = None -> ~ In p (map fst t).
Proof.
  induction t as [|[q j] t IH]; simpl; intros H; [tauto|].
  destruct (path_dec p q) as [E|E]; [discriminate|]. intros [E'|H']; [congruence|tauto].
Qed.

Lemma map_fst_filter {B} (g : path -> bool) (l : list (path * B)) :
  map fst (filter (fun e => g (fst e)) l) = filter g (map fst l).
Proof. induction l as [|e l IH]; [reflexivity|]. cbn [filter map]. destruct (g (fst e)); cbn [map]; congruence. Qed.

Lemma sub_In p : forall l r, In r (map fst (sub p l)) -> In (p ++ r) (map fst l).
Proof.
  induction l as [|[q i] l IH]; simpl; intros r H; [tauto|].
  destruct (strip p q) as [r0|] eqn:E.
  - apply strip_sound in E. destruct H as [<-|H]; [left; auto|right; auto].
  - right; auto.
Qed.

Lemma sub_NoDup p : forall l, NoDup (map fst l) -> NoDup (map fst (sub p l)).
Proof.
  induction l as [|[q i] l IH]; simpl; intros H; [constructor|].
  inversion H as [|? ? Hn Hd]; subst.
  destruct (strip p q) as [r0|] eqn:E; auto.
  simpl. constructor; auto. intros Hx. apply sub_In in Hx. apply strip_sound in E. apply Hn. rewrite E. exact Hx.
Qed.

(* below the class at p, once p itself has been passed: seenR = what of seenA lies at or below p *)
Lemma sub_below ti p : forall l seenA seenR,
  wf_rest ti [] seenA l ->
  (forall r, In (p ++ r) seenA -> In r seenR) ->
  ~ In p (map fst l) ->
  wf_rest ti p seenR (sub p l).
Proof.
  induction l as [|[q i] l IH]; intros seenA seenR Hwf Hinv Hno; [exact I|].
  destruct Hwf as (Hq & Hh & Hp & Hin & Hwf). cbn [app] in Hp. cbn [sub].
  assert (Hno' : ~ In p (map fst l)) by (intros H'; apply Hno; right; exact H').
  destruct (strip p q) as [r|] eqn:E.
  - apply strip_sound in E. subst q.
    assert (Hr : r <> []) by (intros ->; apply Hno; left; apply app_nil_r).
    cbn [wf_rest]. repeat split; auto.
    + rewrite Hp, removelast_app by auto. reflexivity.
    + apply Hinv. rewrite <- removelast_app by auto. exact Hin.
    + apply (IH ((p ++ r) :: seenA)); auto.
      intros r' [E'|H']; [apply app_inv_head in E'; left; auto|right; auto].
  - apply (IH (q :: seenA)); auto.
    intros r' [E'|H']; [subst q; rewrite strip_app in E; discriminate|auto].
Qed.

(* up to the class at p: nothing seen so far lies at or below p, so the first entry there is p itself
   (its owner has been seen) *)
Lemma sub_first ti p : forall l seenA r0 i0 rest',
  wf_rest ti [] seenA l ->
  (forall q, In q seenA -> strip p q = None) ->
  NoDup (map fst l) ->
  sub p l = (r0, i0) :: rest' ->
  r0 = [] /\ hk i0 = None /\ par i0 = Some (ti, removelast p) /\ wf_rest ti p [[]] rest'.
Proof.
  induction l as [|[q i] l IH]; intros seenA r0 i0 rest' Hwf Hinv Hnd Hs; [discriminate Hs|].
  destruct Hwf as (Hq & Hh & Hp & Hin & Hwf). cbn [app] in Hp. cbn [sub] in Hs.
  cbn [map fst] in Hnd. inversion Hnd as [|? ? Hn Hd]; subst.
  destruct (strip p q) as [r|] eqn:E.
  - injection Hs as <- <- <-. apply strip_sound in E. subst q.
    assert (Hr : r = []).
    { destruct r as [|x r']; [reflexivity|]. exfalso.
      rewrite removelast_app in Hin by discriminate.
      specialize (Hinv _ Hin). rewrite strip_app in Hinv. discriminate. }
    subst r. rewrite app_nil_r in *. repeat split; auto.
    apply (sub_below ti p l (p :: seenA)); auto.
    intros r0 [E0|H0].
    + left. apply (app_inv_head p). rewrite app_nil_r. exact E0.
    + specialize (Hinv _ H0). rewrite strip_app in Hinv. discriminate.
  - apply (IH (q :: seenA)); auto.
    intros q' [<-|H']; auto.
Qed.

(* every live class of a well-formed world is a well-formed deepcopy source (a non-root class: sub_first
   over the classes the root owns) *)
Lemma wf_src w a i0 rest :
  wf_world w -> src_of w a = Some (i0, rest) ->
  wf_at w a i0 rest /\ (forall pa, par i0 = Some pa -> fst pa < length w) /\
  NoDup (map fst (([], i0) :: rest)).
Proof.
  intros Hw Hs. destruct a as [ti p]. pose proof Hs as Hs0. unfold src_of in Hs. cbn [fst snd] in Hs.
  destruct (nth_error w ti) as [t|] eqn:Ht; [|discriminate].
  assert (Hlt : ti < length w) by (apply nth_error_Some; congruence).
  destruct (Hw _ _ Ht) as (j0 & rest0 & -> & Hh & Hpar & Hwf & Hnd).
  assert (Hnd' : NoDup (map fst (sub p (([], j0) :: rest0)))) by (apply sub_NoDup; exact Hnd).
  destruct p as [|x p'].
  - rewrite sub_nil in Hs, Hnd'. injection Hs as <- <-. split; [|split; [|exact Hnd']].
    + repeat split; auto. intros E. exact (Nat.lt_irrefl _ (Hpar _ E)).
    + intros pa E. exact (Nat.lt_trans _ _ _ (Hpar _ E) Hlt).
  - cbn [sub strip] in Hs, Hnd'.
    cbn [map fst] in Hnd. inversion Hnd as [|? ? _ Hd]; subst.
    destruct (sub (x :: p') rest0) as [|[r1 i1] rest1] eqn:E; [discriminate Hs|].
    assert (Hseen : forall q, In q [[]] -> strip (x :: p') q = None) by (intros q [<-|[]]; reflexivity).
    destruct (sub_first ti (x :: p') rest0 [[]] r1 i1 rest1 Hwf Hseen Hd E) as (-> & Hh1 & Hp1 & Hw1).
    injection Hs as <- <-. split; [|split; [|exact Hnd']].
    + repeat split; auto. rewrite Hp1. intros E'. injection E' as E'.
      apply (removelast_neq (x :: p')); [discriminate|exact E'].
    + intros pa E'. rewrite Hp1 in E'. injection E' as <-. exact Hlt.
Qed.

Lemma wf_world_snoc w c : wf_world w -> wf_tree (length w) c -> wf_world (w ++ [c]).
Proof.
  intros Hw Hc tj t Htj. destruct (Nat.lt_ge_cases tj (length w)) as [L|L].
  - rewrite nth_error_app1 in Htj by exact L. eauto.
  - rewrite nth_error_app2 in Htj by exact L.
    destruct (tj - length w) as [|m] eqn:Em; [|destruct m; discriminate Htj].
    injection Htj as <-. apply Nat.sub_0_le in Em. rewrite (Nat.le_antisymm _ _ Em L). exact Hc.
Qed.

Lemma map_fst_map {B} (g : path * B -> path * B) l : (forall e, fst (g e) = fst e) -> map fst (map g l) = map fst l.
Proof. intros Hg. rewrite map_map. apply map_ext. exact Hg. Qed.

Lemma copy_wf w a i0 rest :
  wf_world w -> src_of w a = Some (i0, rest) -> wf_world (w ++ [spec_copy (length w) i0 rest]).
Proof.
  intros Hw Hs. destruct (wf_src _ _ _ _ Hw Hs) as ((_ & _ & _ & Hr) & Hlt & Hnd).
  apply wf_world_snoc; [exact Hw|].
  exists (Info (dat i0) (par i0) None), (map (spec_node (length w)) rest).
  split; [reflexivity|]. split; [reflexivity|]. split; [exact Hlt|]. split.
  - exact (wf_rest_spec _ _ _ _ _ Hr).
  - unfold spec_copy. cbn [map fst]. rewrite map_fst_map by reflexivity. exact Hnd.
Qed.

Lemma upd_tree_wf w ti f :
  wf_world w -> (forall t, wf_tree ti t -> wf_tree ti (f t)) -> wf_world (upd_tree w ti f).
Proof.
  intros Hw Hf tj t Htj. destruct (Nat.eq_dec tj ti) as [->|N].
  - rewrite upd_tree_same in Htj. destruct (nth_error w ti) as [t0|] eqn:E; [|discriminate].
    injection Htj as <-. apply Hf. eauto.
  - rewrite upd_tree_other in Htj by auto. eauto.
Qed.

Lemma wf_rest_app ti p : forall l1 l2 seen,
  wf_rest ti p seen (l1 ++ l2) <-> wf_rest ti p seen l1 /\ wf_rest ti p (rev (map fst l1) ++ seen) l2.
Proof.
  induction l1 as [|[r i] l1 IH]; intros l2 seen; cbn [app map rev wf_rest fst]; [tauto|].
  rewrite IH, <- app_assoc. cbn [app]. tauto.
Qed.

Lemma wf_tree_snoc ti t r i :
  wf_tree ti t -> r <> [] -> hk i = None -> par i = Some (ti, removelast r) ->
  In (removelast r) (map fst t) -> ~ In r (map fst t) -> wf_tree ti (t ++ [(r, i)]).
Proof.
  intros (j0 & rest & -> & Hh & Hpar & Hwf & Hnd) Hr Hhi Hp Hin Hn.
  exists j0, (rest ++ [(r, i)]). split; [reflexivity|]. split; [exact Hh|]. split; [exact Hpar|]. split.
  - apply wf_rest_app. split; [exact Hwf|]. cbn [wf_rest app]. repeat split; auto.
    apply in_or_app. destruct Hin as [E|Hin]; [right; left; exact E|left; apply in_rev in Hin; exact Hin].
  - rewrite map_app. apply (NoDup_Add (Add_app r _ [])). rewrite app_nil_r. split; assumption.
Qed.

Lemma wf_rest_filter ti (keep : path -> bool) :
  (forall q, q <> [] -> keep q = true -> keep (removelast q) = true) ->
  forall l seen, wf_rest ti [] seen l ->
  wf_rest ti [] (filter keep seen) (filter (fun e => keep (fst e)) l).
Proof.
  intros Hk. induction l as [|[q i] l IH]; intros seen Hwf; [exact I|].
  destruct Hwf as (Hq & Hh & Hp & Hin & Hwf). specialize (IH _ Hwf). cbn [filter fst] in *.
  destruct (keep q) eqn:K; [|exact IH].
  cbn [wf_rest]. repeat split; auto. apply filter_In. auto.
Qed.

Lemma wf_tree_filter ti (keep : path -> bool) t :
  keep [] = true -> (forall q, q <> [] -> keep q = true -> keep (removelast q) = true) ->
  wf_tree ti t -> wf_tree ti (filter (fun e => keep (fst e)) t).
Proof.
  intros K0 Hk (j0 & rest & -> & Hh & Hpar & Hwf & Hnd).
  pose proof (wf_rest_filter ti keep Hk _ _ Hwf) as H. pose proof (NoDup_filter keep Hnd) as Hf.
  cbn [filter map fst] in *. rewrite K0 in *.
  exists j0, (filter (fun e => keep (fst e)) rest).
  split; [reflexivity|]. split; [exact Hh|]. split; [exact Hpar|]. split; [exact H|].
  cbn [map fst]. rewrite map_fst_filter. exact Hf.
Qed.

Lemma wf_rest_map ti p (g : path * info -> path * info) :
  (forall e, fst (g e) = fst e /\ par (snd (g e)) = par (snd e) /\ hk (snd (g e)) = hk (snd e)) ->
  forall l seen, wf_rest ti p seen l -> wf_rest ti p seen (map g l).
Proof.
  intros Hg. induction l as [|[r i] l IH]; intros seen H; [exact I|].
  destruct H as (Hr & Hh & Hp & Hin & H). cbn [map].
  destruct (Hg (r, i)) as (E1 & E2 & E3). destruct (g (r, i)) as [r' i'] eqn:Eg.
  cbn [fst snd] in *. subst r'. cbn [wf_rest]. rewrite E2, E3. repeat split; auto.
Qed.

Lemma wf_tree_map ti (g : path * info -> path * info) t :
  (forall e, fst (g e) = fst e /\ par (snd (g e)) = par (snd e) /\ hk (snd (g e)) = hk (snd e)) ->
  wf_tree ti t -> wf_tree ti (map g t).
Proof.
  intros Hg (j0 & rest & -> & Hh & Hpar & Hwf & Hnd).
  exists (snd (g ([], j0))), (map g rest). destruct (Hg ([], j0)) as (E1 & E2 & E3). rewrite E2, E3. split.
  - cbn [map]. rewrite (surjective_pairing (g ([], j0))), E1. reflexivity.
  - split; [exact Hh|]. split; [exact Hpar|]. split; [exact (wf_rest_map _ _ g Hg _ _ Hwf)|].
    rewrite map_fst_map by apply Hg. exact Hnd.
Qed.

(* the boolean check of the parsed tree (evaluated in the correspondence) is sound *)
Lemma mem_path_In p l : mem_path p l = true <-> In p l.
Proof.
  unfold mem_path. rewrite existsb_exists. split.
  - intros (q & Hq & E). destruct (path_dec p q) as [->|]; [exact Hq|discriminate].
  - intros H. exists p. split; auto. destruct (path_dec p p) as [_|N]; [reflexivity|exfalso; apply N; reflexivity].
Qed.

Lemma no_hook_true i : no_hook i = true -> hk i = None.
Proof. unfold no_hook. destruct (hk i); [discriminate|reflexivity]. Qed.

Lemma wf_restb_sound ti p : forall rest seen, wf_restb ti p seen rest = true -> wf_rest ti p seen rest.
Proof.
  induction rest as [|[r i] rest IH]; intros seen H; [exact I|].
  cbn [wf_restb] in H. rewrite !andb_true_iff in H. destruct H as ((((H1 & H2) & H3) & H4) & H5).
  cbn [wf_rest]. repeat split.
  - intros ->. discriminate H1.
  - exact (no_hook_true _ H2).
  - destruct (oaddr_dec (par i) (Some (ti, p ++ removelast r))) as [E|]; [exact E|discriminate].
  - apply mem_path_In. exact H4.
  - apply IH. exact H5.
Qed.

Lemma nodupb_sound : forall l, nodupb l = true -> NoDup l.
Proof.
  induction l as [|x l IH]; intros H; [constructor|].
  cbn [nodupb] in H. apply andb_prop in H. destruct H as (H1 & H2). constructor; auto.
  intros Hin. apply mem_path_In in Hin. rewrite Hin in H1. discriminate H1.
Qed.

Lemma wf_treeb_sound ti t : wf_treeb ti t = true -> wf_tree ti t.
Proof.
  destruct t as [|[[|x q] i0] rest]; cbn [wf_treeb]; try discriminate. intros H.
  rewrite !andb_true_iff in H. destruct H as (((H1 & H2) & H3) & H4).
  exists i0, rest. split; [reflexivity|]. split; [|split; [|split]].
  - exact (no_hook_true _ H1).
  - intros pa E. rewrite E in H2. apply Nat.ltb_lt. exact H2.
  - apply wf_restb_sound. exact H3.
  - apply nodupb_sound. exact H4.
Qed.

Lemma edit_wf o ti t : touches o ti -> wf_tree ti t -> wf_tree ti (edit o t).
Proof.
  destruct o as [a|[ta p] k d|[ta p] k|[ta p] d|[ta p] k ents]; cbn [touches op_tree fst];
    [intros []| | | |]; intros <- Hw; cbn [edit fst snd].
  - destruct (assoc p t) as [i|] eqn:Ha; [|exact Hw]. destruct (assoc (p ++ [k]) t) eqn:Hn; [exact Hw|].
    cbn [is_some negb andb]. apply wf_tree_snoc; cbn [par hk]; rewrite ?removelast_last; auto.
    + destruct p; discriminate.
    + apply assoc_In in Ha. exact (in_map fst _ _ Ha).
    + exact (assoc_None_notin _ _ Hn).
  - apply (wf_tree_filter ta (fun q => negb (is_some (strip (p ++ [k]) q)))); [| |exact Hw].
    + rewrite strip_snoc_nil. reflexivity.
    + intros q Hq H. destruct (strip (p ++ [k]) q) eqn:E; [discriminate H|].
      rewrite (strip_owner _ _ Hq E). reflexivity.
  - apply wf_tree_map; [|exact Hw]. intros e. destruct (path_dec (fst e) p); cbn; auto.
  - (* a transplanted subtree is accepted only if the result passes the check *)
    destruct (is_some _); [|exact Hw]. cbv zeta.
    match goal with |- wf_tree _ (if ?b then _ else _) => destruct b eqn:E end; [|exact Hw].
    apply wf_treeb_sound. exact E.
Qed.

Lemma apply_op_wf w o : wf_world w -> wf_world (apply_op fixed_flags w o).
Proof.
  intros Hw. destruct o as [a|a k d|a k|a d|a k ents];
    [|erewrite apply_op_edit by reflexivity; (apply upd_tree_wf; [exact Hw|]);
      intros t; apply edit_wf; reflexivity ..].
  cbn [apply_op]. destruct (deepcopy fixed_flags w a) as [w'|] eqn:D; [|exact Hw].
  destruct (src_of w a) as [[i0 rest]|] eqn:S; [|unfold deepcopy in D; rewrite S in D; discriminate D].
  destruct (wf_src _ _ _ _ Hw S) as (Hat & _). rewrite (deepcopy_spec _ _ _ _ Hat) in D. injection D as <-.
  exact (copy_wf _ _ _ _ Hw S).
Qed.

Lemma run_wf ops w : wf_world w -> wf_world (run fixed_flags ops w).
Proof.
  apply (run_inv fixed_flags (fun _ => True) wf_world); [|auto]. intros w' o _. apply apply_op_wf.
Qed.

(* a self-contained tree: its root has no parent *)
Definition root_none (w : world) (ti : nat) : Prop :=
  exists i0 rest, nth_error w ti = Some (([], i0) :: rest) /\ par i0 = None.

Lemma root_none_closed w ti :
  wf_world w -> root_none w ti -> exists t, nth_error w ti = Some t /\ closed_tree ti t.
Proof.
  intros Hw (i0 & rest & Ht & Hp). exists (([], i0) :: rest). split; [exact Ht|].
  destruct (Hw _ _ Ht) as (j0 & r0 & E & _ & _ & Hwf & _). injection E as <- <-.
  exact (proj2 (wf_rest_closed _ i0 _ _ Hwf) Hp).
Qed.

Lemma edit_root o i0 rest : exists i1 r1, edit o (([], i0) :: rest) = ([], i1) :: r1 /\ par i1 = par i0.
Proof.
  destruct o as [a|a k d|a k|a d|a k ents]; cbn [edit].
  - eauto.
  - destruct (_ && _); cbn [app]; eauto.
  - cbn [filter fst]. rewrite strip_snoc_nil. cbn. eauto.
  - cbn [map fst snd]. destruct (path_dec [] (snd a)); cbn; eauto.
  - destruct (is_some _); [|eauto]. cbv zeta.
    match goal with |- exists _ _, (if ?b then _ else _) = _ /\ _ => destruct b end; [|eauto].
    cbn [filter fst app]. rewrite strip_snoc_nil. cbn [negb is_some app]. eauto.
Qed.

Definition touchesb (ti : nat) (o : op) : bool :=
  match o with DeepCopy _ => false | _ => Nat.eqb (op_tree o) ti end.

Lemma touchesb_spec ti o : if touchesb ti o then touches o ti else ~ touches o ti.
Proof.
  destruct o as [a|a k d|a k|a d|a k e]; cbn; [intros []|..]; destruct (Nat.eqb_spec (fst a) ti); assumption.
Qed.

Lemma apply_op_root_none fl w o ti : root_none w ti -> root_none (apply_op fl w o) ti.
Proof.
  intros (i0 & rest & Ht & Hp). pose proof (touchesb_spec ti o) as T. destruct (touchesb ti o).
  - destruct (edit_root o i0 rest) as (i1 & r1 & E & Hp1). exists i1, r1.
    rewrite (apply_op_same _ _ _ _ _ Ht T), E, Hp1. auto.
  - exists i0, rest. rewrite (apply_op_other _ _ _ _ _ Ht T). auto.
Qed.

Lemma run_project fl ti : forall ops w1 w2 t,
  nth_error w1 ti = Some t -> nth_error w2 ti = Some t ->
  nth_error (run fl ops w1) ti = nth_error (run fl (filter (touchesb ti) ops) w2) ti.
Proof.
  induction ops as [|o ops IH]; intros w1 w2 t H1 H2; [exact (eq_trans H1 (eq_sym H2))|].
  cbn [run fold_left filter]. pose proof (touchesb_spec ti o) as T. destruct (touchesb ti o).
  - cbn [fold_left]. apply (IH _ _ (edit o t)); apply apply_op_same; assumption.
  - apply (IH _ _ t); [apply apply_op_other; assumption|exact H2].
Qed.

(* history-level independence: in any well-formed world, for any self-contained tree
   (the parsed tree, a copy of it, a copy of a copy ...) and ANY further history, the tree and
   everything lookup can reach from its classes are what the sub-history of the operations
   addressed to that tree alone produces *)
Lemma history_projection w ti ops :
  wf_world w -> root_none w ti ->
  let wfull := run fixed_flags ops w in
  let wproj := run fixed_flags (filter (touchesb ti) ops) w in
  nth_error wfull ti = nth_error wproj ti /\
  forall p ss, see wfull (ti, p) ss = see wproj (ti, p) ss.
Proof.
  intros Hw Hr wfull wproj.
  assert (E : nth_error wfull ti = nth_error wproj ti)
    by (destruct Hr as (i0 & rest & Ht & _); exact (run_project _ _ _ _ _ _ Ht Ht)).
  split; [exact E|]. intros p ss.
  assert (Hr' : root_none wproj ti)
    by (apply (run_inv _ (fun _ => True) (fun w' => root_none w' ti)); auto using apply_op_root_none).
  destruct (root_none_closed wproj ti (run_wf _ _ Hw) Hr') as (t & Ht & Hc).
  exact (see_closed _ _ _ _ Ht Hc E p ss).
Qed.
