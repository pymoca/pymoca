(* C25 — proofs about Model/C25_xml.v: the decoder is a left inverse of the generator on the
   normalised flat tree (structural induction, unbounded). *)
From Coq Require Import String List Bool Arith.
From PV Require Import Model.C25_xml.
Import ListNotations.
Open Scope string_scope.
Open Scope list_scope.

(* the induction principles Coq does not generate: operands and when-bodies are lists of the type itself *)
Section ExprInd.
  Variable P : expr -> Prop.
  Hypothesis HRef : forall n, P (Ref n).
  Hypothesis HLit : forall k t, P (Lit k t).
  Hypothesis HOp : forall o args, Forall P args -> P (Op o args).
  Fixpoint expr_ind' (e : expr) : P e :=
    match e with
    | Ref n => HRef n
    | Lit k t => HLit k t
    | Op o args =>
        HOp o args ((fix go (l : list expr) : Forall P l :=
                       match l with
                       | [] => Forall_nil P
                       | a :: r => Forall_cons a (expr_ind' a) (go r)
                       end) args)
    end.
End ExprInd.

Section EqnInd.
  Variable P : eqn -> Prop.
  Hypothesis HEqual : forall l r, P (Equal l r).
  Hypothesis HDecl : forall s r, P (DeclEq s r).
  Hypothesis HFun : forall f args, P (FunEq f args).
  Hypothesis HWhen : forall c body, Forall P body -> P (When c body).
  Fixpoint eqn_ind' (q : eqn) : P q :=
    match q with
    | Equal l r => HEqual l r
    | DeclEq s r => HDecl s r
    | FunEq f args => HFun f args
    | When c body =>
        HWhen c body ((fix go (l : list eqn) : Forall P l :=
                         match l with
                         | [] => Forall_nil P
                         | a :: r => Forall_cons a (eqn_ind' a) (go r)
                         end) body)
    end.
End EqnInd.

Lemma mapM_cons {A B} (f : A -> option B) (a : A) (r : list A) :
  mapM f (a :: r) = match f a, mapM f r with Some b, Some bs => Some (b :: bs) | _, _ => None end.
Proof. reflexivity. Qed.

Lemma mapM_map {A B C} (f : B -> option C) (g : A -> B) (h : A -> C) (l : list A) :
  Forall (fun a => f (g a) = Some (h a)) l -> mapM f (map g l) = Some (map h l).
Proof.
  induction 1 as [|a r Ha _ IH]; [reflexivity|].
  cbn [map]. rewrite mapM_cons, Ha, IH. reflexivity.
Qed.

Lemma mapM_map_In {A B C} (f : B -> option C) (g : A -> B) (h : A -> C) (l : list A) :
  (forall a, In a l -> f (g a) = Some (h a)) -> mapM f (map g l) = Some (map h l).
Proof. intros H. apply mapM_map, Forall_forall, H. Qed.

Lemma unexpr_operator o ch :
  unexpr (Node T_operator [(A_name, o)] ch) =
  match mapM unexpr ch with Some [e] => Some (Op o [e]) | _ => None end.
Proof. reflexivity. Qed.
Lemma unexpr_apply o ch :
  unexpr (Node T_apply [(A_builtin, o)] ch) =
  match mapM unexpr ch with Some [_] => None | Some es => Some (Op o es) | None => None end.
Proof. reflexivity. Qed.
Lemma uneqn_equal l r :
  uneqn (Node T_equal [] [l; r]) =
  match unexpr l, unexpr r with Some a, Some b => Some (Equal a b) | _, _ => None end.
Proof. reflexivity. Qed.
Lemma uneqn_apply f ch :
  uneqn (Node T_apply [(A_builtin, f)] ch) =
  match mapM unexpr ch with Some es => Some (FunEq f es) | None => None end.
Proof. reflexivity. Qed.
Lemma uneqn_when c body :
  uneqn (Node T_when [] [Node T_cond [] [c]; Node T_then [] body]) =
  match unexpr c, mapM uneqn body with Some c', Some b' => Some (When c' b') | _, _ => None end.
Proof. reflexivity. Qed.
Lemma unbody_last E :
  unbody [Node T_equation [] E] = match mapM uneqn E with Some es => Some ([], es) | None => None end.
Proof. reflexivity. Qed.
Lemma unbody_cons x y ys :
  unbody (x :: y :: ys) =
  match unsym x, unbody (y :: ys) with Some s, Some (ss, es) => Some (s :: ss, es) | _, _ => None end.
Proof. reflexivity. Qed.
Lemma uncls_unfold n body :
  uncls (Node T_classDefinition [(A_name, n)] [Node T_class [(A_kind, V_model)] body]) =
  match unbody body with Some (ss, es) => Some (Cls n ss es) | None => None end.
Proof. reflexivity. Qed.
Lemma unxml_unfold cs :
  unxml (Node T_modelica [(A_format, V_format)] [Node T_declarations [] cs]) = mapM uncls cs.
Proof. reflexivity. Qed.

Lemma unexpr_gen (e : expr) : unexpr (gen_expr e) = Some (norm_expr e).
Proof.
  induction e as [n|k t|o args IH] using expr_ind'; try reflexivity.
  pose proof (mapM_map unexpr gen_expr norm_expr args IH) as HM.
  destruct args as [|a [|b r]].
  - reflexivity.
  - cbn [gen_expr]. rewrite unexpr_operator, HM. reflexivity.
  - cbn [gen_expr]. rewrite unexpr_apply, HM. reflexivity.
Qed.

Lemma unexpr_gen_list (l : list expr) : mapM unexpr (map gen_expr l) = Some (map norm_expr l).
Proof. apply mapM_map_In. intros e _. apply unexpr_gen. Qed.

Lemma guard_In {A} (mv : bool) (f : A -> bool) (l : list A) (a : A) :
  (mv = true -> existsb f l = false) -> In a l -> mv = true -> f a = false.
Proof.
  intros Hs Ha Hmv. destruct (f a) eqn:E; [|reflexivity].
  rewrite <- (Hs Hmv). symmetry. apply existsb_exists. exists a. split; assumption.
Qed.

Lemma uneqn_gen (mv : bool) (q : eqn) :
  (mv = true -> has_decl q = false) -> uneqn (gen_eqn mv q) = Some (norm_eqn q).
Proof.
  induction q as [l r|s r|f args|c body IH] using eqn_ind'; intros Hs.
  - cbn [gen_eqn]. rewrite uneqn_equal, !unexpr_gen. reflexivity.
  - destruct mv.
    + specialize (Hs eq_refl). discriminate Hs.
    + cbn [gen_eqn]. rewrite uneqn_equal, !unexpr_gen. reflexivity.
  - cbn [gen_eqn]. rewrite uneqn_apply, unexpr_gen_list. reflexivity.
  - cbn [gen_eqn]. rewrite uneqn_when, unexpr_gen.
    rewrite Forall_forall in IH.
    rewrite (mapM_map_In _ _ _ body (fun q Hq => IH q Hq (guard_In mv has_decl body q Hs Hq))).
    reflexivity.
Qed.

Lemma uneqn_gen_list (mv : bool) (l : list eqn) :
  (mv = true -> existsb has_decl l = false) ->
  mapM uneqn (map (gen_eqn mv) l) = Some (map norm_eqn l).
Proof.
  intros Hs. apply mapM_map_In. intros q Hq. apply uneqn_gen, (guard_In mv _ l q Hs Hq).
Qed.

(* the variability attribute is decoded independently of the modifier items *)
Lemma unsym_items n ty vattrs st va (fx : bool) :
  unsym (Node T_component ((A_name, n) :: vattrs)
           [Node T_builtin [(A_name, ty)] [];
            Node T_modifier [] (opt_item F_start st ++ opt_item F_value va
                                ++ (if fx then [item F_fixed (Node T_true [] [])] else []))]) =
  match match vattrs with
        | [] => Some []
        | [(kv, v)] => if kv =? A_variability then Some [v] else None
        | _ => None
        end with
  | Some p => Some (Sym n ty p (norm_lit st) (norm_lit va) fx)
  | None => None
  end.
Proof. destruct st as [[k1 t1]|]; destruct va as [[k2 t2]|]; destruct fx; reflexivity. Qed.

Lemma unsym_gen (s : sym) : unsym (gen_sym s) = Some (norm_sym s).
Proof.
  destruct s as [n ty p st va fx]. unfold gen_sym, norm_sym, variability.
  cbn [s_name s_type s_prefixes s_start s_value s_fixed]. rewrite unsym_items.
  destruct (first_in variabilities p); reflexivity.
Qed.

Lemma unbody_gen (ss : list sym) (E : list xml) (es : list eqn) :
  mapM uneqn E = Some es ->
  unbody (map gen_sym ss ++ [Node T_equation [] E]) = Some (map norm_sym ss, es).
Proof.
  intros HE. induction ss as [|s r IH].
  - cbn [map app]. rewrite unbody_last, HE. reflexivity.
  - cbn [map app]. destruct (map gen_sym r ++ [Node T_equation [] E]) as [|y ys] eqn:Hl.
    + destruct (map gen_sym r); discriminate Hl.
    + rewrite unbody_cons, unsym_gen, IH. reflexivity.
Qed.

Lemma uncls_gen (mv : bool) (c : cls) :
  (mv = true -> existsb has_decl (c_eqs c) = false) ->
  uncls (gen_cls mv c) = Some (norm_cls c).
Proof.
  intros Hs. destruct c as [n ss es]. unfold gen_cls, norm_cls. cbn [c_name c_syms c_eqs] in *.
  rewrite uncls_unfold.
  rewrite (unbody_gen ss _ (map norm_eqn es) (uneqn_gen_list mv es Hs)). reflexivity.
Qed.

Theorem roundtrip (mv : bool) (t : flat) :
  (mv = true -> has_decl_flat t = false) -> unxml (gen mv t) = Some (norm t).
Proof.
  intros Hs. unfold gen, norm. rewrite unxml_unfold.
  apply mapM_map_In. intros c Hc. apply uncls_gen, (guard_In mv _ t c Hs Hc).
Qed.

(* the generator is injective up to the normalisation: two flat trees with the same XML carry the same
   names, builtin types, variabilities, start/value texts and the same equations, operator for operator *)
Corollary gen_injective (mv : bool) (t u : flat) :
  (mv = true -> has_decl_flat t = false) -> (mv = true -> has_decl_flat u = false) ->
  gen mv t = gen mv u -> norm t = norm u.
Proof.
  intros Ht Hu H. pose proof (roundtrip mv t Ht) as A. pose proof (roundtrip mv u Hu) as B.
  rewrite H in A. rewrite A in B. injection B as B. exact B.
Qed.

Lemma class_shape (mv : bool) (c : cls) :
  exists comps eqs,
    gen_cls mv c = Node T_classDefinition [(A_name, c_name c)]
                        [Node T_class [(A_kind, V_model)] (comps ++ [Node T_equation [] eqs])]
    /\ comps = map gen_sym (c_syms c) /\ eqs = map (gen_eqn mv) (c_eqs c)
    /\ length comps = length (c_syms c) /\ length eqs = length (c_eqs c).
Proof.
  eexists _, _. repeat split; try reflexivity; apply map_length.
Qed.

(* the defect: with the moved left operand the declaration-value equation `Real x = 3;` is not mirrored *)
Definition decl_witness : flat :=
  [Cls "M" [Sym "x" "Real" [] None None false] [DeclEq "x" (Lit KInt "3")]].

Lemma moved_refuted : unxml (gen true decl_witness) <> Some (norm decl_witness).
Proof. vm_compute. discriminate. Qed.

Lemma moved_loses_left :
  gen_eqn true (DeclEq "x" (Lit KInt "3")) = Node T_equal [] [Node T_real [(A_value, "3")] []].
Proof. reflexivity. Qed.

(* a non-trivial member of the subset *)
Definition example_flat : flat :=
  [Cls "M"
     [Sym "p" "Real" ["parameter"] None (Some (KReal, "2.5")) false;
      Sym "d" "Integer" ["discrete"; "output"] (Some (KInt, "0")) None false;
      Sym "x" "Real" [] (Some (KReal, "1.0")) None true;
      Sym "u" "Real" ["input"] None None false]
     [Equal (Op "der" [Ref "x"]) (Op "+" [Op "-" [Ref "x"]; Op "*" [Op "sin" [Ref "u"]; Ref "p"]]);
      When (Op ">" [Ref "x"; Lit KInt "1"])
           [FunEq "reinit" [Ref "x"; Lit KInt "0"]; Equal (Ref "d") (Op "+" [Op "pre" [Ref "d"]; Lit KInt "1"])];
      Equal (Ref "u") (Op "min" [Ref "x"; Ref "p"; Lit KBool "True"])]].

Lemma example_ok :
  has_decl_flat example_flat = false /\ unxml (gen true example_flat) = Some (norm example_flat)
  /\ norm example_flat <> example_flat.
Proof. split; [reflexivity|]. split; [vm_compute; reflexivity|]. discriminate. Qed.
