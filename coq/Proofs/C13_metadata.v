(* C13 — Model/C13_metadata.v: the affine rebuild is right on the syntactic affine class; the metadata matrices
   hold the declared attributes on either branch; eliminating parameters commutes with the specification. *)
From Coq Require Import QArith Qcanon Qabs List Bool ZArith Lia.
From PV Require Import Model.C13_metadata.
Import ListNotations.
Local Open Scope Qc_scope.

Lemma dot_ext g h p k : (forall i, g i = h i) -> dot g p k = dot h p k.
Proof. intros E. revert k. induction p as [|x p IH]; intros k; simpl; [reflexivity|]. now rewrite E, IH. Qed.

Lemma dot_zero p k : dot (fun _ => 0) p k = 0.
Proof. revert k. induction p as [|x p IH]; intros k; simpl; [reflexivity|]. rewrite IH. ring. Qed.

Lemma dot_add g h p k : dot (fun i => g i + h i) p k = dot g p k + dot h p k.
Proof. revert k. induction p as [|x p IH]; intros k; simpl; [ring|]. rewrite IH. ring. Qed.

Lemma dot_sub g h p k : dot (fun i => g i - h i) p k = dot g p k - dot h p k.
Proof. revert k. induction p as [|x p IH]; intros k; simpl; [ring|]. rewrite IH. ring. Qed.

Lemma dot_neg g p k : dot (fun i => - g i) p k = - dot g p k.
Proof. revert k. induction p as [|x p IH]; intros k; simpl; [ring|]. rewrite IH. ring. Qed.

Lemma dot_scale c g p k : dot (fun i => c * g i) p k = c * dot g p k.
Proof. revert k. induction p as [|x p IH]; intros k; simpl; [ring|]. rewrite IH. ring. Qed.

Lemma dot_shift g p k : dot g p (S k) = dot (fun i => g (S i)) p k.
Proof. revert k. induction p as [|x p IH]; intros k; simpl; [reflexivity|]. now rewrite IH. Qed.

Lemma dot_delta j p : dot (fun i => if Nat.eqb i j then 1 else 0) p 0 = nth j p 0.
Proof.
  revert j. induction p as [|x p IH]; intros [|j]; simpl; try reflexivity; rewrite dot_shift; simpl.
  - rewrite dot_zero. ring.
  - rewrite IH. ring.
Qed.

Lemma pfree_eval e p : pfree e = true -> eval p e = v0 e.
Proof.
  unfold v0. induction e; simpl; intros H; try reflexivity; try discriminate;
    try (apply andb_prop in H as [H1 H2]; rewrite (IHe1 H1), (IHe2 H2); reflexivity);
    try (apply andb_prop in H as [H H3]; apply andb_prop in H as [H1 H2];
         rewrite (IHe1 H1), (IHe2 H2), (IHe3 H3); reflexivity);
    rewrite (IHe H); reflexivity.
Qed.

Lemma pfree_d0 e i : pfree e = true -> d0 e i = 0.
Proof.
  induction e; simpl; intros H; try reflexivity; try discriminate;
    try (apply andb_prop in H as [H1 H2]; rewrite (IHe1 H1), (IHe2 H2));
    try (rewrite (IHe H)).
  - ring.
  - ring.
  - ring.
  - unfold Qcdiv. ring.
  - ring.
  - destruct n; [reflexivity|ring].
  - (* IfB *) apply andb_prop in H as [H H3]. apply andb_prop in H as [H1 H2].
    rewrite (IHe2 H2), (IHe3 H3). destruct (Qc_eq_bool (v0 e1) 0); reflexivity.
Qed.

Lemma qnz_neq q : qnz q = true -> q <> 0.
Proof.
  unfold qnz. intros H E. subst q. discriminate H.
Qed.

Lemma pfree_rebuild e p : pfree e = true -> rebuild e p = eval p e.
Proof.
  intros F. unfold rebuild.
  rewrite (dot_ext _ (fun _ => 0)) by (intros i; exact (pfree_d0 e i F)).
  rewrite dot_zero, (pfree_eval e p F). ring.
Qed.

Lemma affine_rebuild e p : affine e = true -> safe p e = true -> rebuild e p = eval p e.
Proof.
  (* Cst, Pow, IfB, NotB, LtB: affine is pfree there by definition *)
  induction e; intros HA HS; try (apply pfree_rebuild; exact HA); unfold rebuild; simpl in *.
  - (* Par *) rewrite dot_delta. unfold v0. simpl. destruct i; ring.
  - (* Add *) apply andb_prop in HA as [A1 A2]. apply andb_prop in HS as [S1 S2].
    rewrite dot_add, <- (IHe1 A1 S1), <- (IHe2 A2 S2). unfold rebuild, v0. simpl. ring.
  - (* Sub *) apply andb_prop in HA as [A1 A2]. apply andb_prop in HS as [S1 S2].
    rewrite dot_sub, <- (IHe1 A1 S1), <- (IHe2 A2 S2). unfold rebuild, v0. simpl. ring.
  - (* Mul *) apply andb_prop in HS as [S1 S2].
    apply orb_prop in HA as [HA|HA]; apply andb_prop in HA as [A1 A2].
    + rewrite (dot_ext _ (fun i => v0 e1 * d0 e2 i)) by (intros i; rewrite (pfree_d0 e1 i A1); ring).
      rewrite dot_scale, (pfree_eval e1 p A1), <- (IHe2 A2 S2). unfold rebuild, v0. simpl. ring.
    + rewrite (dot_ext _ (fun i => v0 e2 * d0 e1 i)) by (intros i; rewrite (pfree_d0 e2 i A2); ring).
      rewrite dot_scale, (pfree_eval e2 p A2), <- (IHe1 A1 S1). unfold rebuild, v0. simpl. ring.
  - (* Div *) apply andb_prop in HA as [A1 A2].
    apply andb_prop in HS as [HS S3]. apply andb_prop in HS as [S1 S2].
    apply qnz_neq in S3. rewrite (pfree_eval e2 p A2) in S3 |- *.
    rewrite (dot_ext _ (fun i => / v0 e2 * d0 e1 i)).
    2:{ intros i. rewrite (pfree_d0 e2 i A2). field. exact S3. }
    rewrite dot_scale, <- (IHe1 A1 S1). unfold rebuild.
    change (v0 (Div e1 e2)) with (v0 e1 / v0 e2). field. exact S3.
  - (* Neg *) rewrite dot_neg, <- (IHe HA HS). unfold rebuild, v0. simpl. ring.
Qed.

Lemma coerce_value t l : well_typed t l = true -> lit_val (coerce t l) = lit_val l.
Proof. destruct t, l; simpl; intros H; try discriminate; try reflexivity; destruct b; reflexivity. Qed.

Lemma coerce_tag_int z : lit_tag (coerce TInt (LInt z)) = GInt.
Proof. reflexivity. Qed.
Lemma coerce_tag_bool t b : t <> TReal -> lit_tag (coerce t (LBool b)) = GBool.
Proof. destruct t; intros H; try reflexivity. now elim H. Qed.
Lemma coerce_tag_real l : lit_tag (coerce TReal l) = GFloat.
Proof. destruct l; reflexivity. Qed.

Lemma nth_repeat_ {A} (x d : A) n k : (k < n)%nat -> nth k (repeat_ x n) d = x.
Proof. revert k. induction n; intros k H; [lia|]. destruct k; simpl; [reflexivity|]. apply IHn. lia. Qed.

Lemma length_repeat_ {A} (x : A) n : length (repeat_ x n) = n.
Proof. induction n; simpl; congruence. Qed.

Lemma map_const_seq {A} (x : A) s n : map (fun _ => x) (seq s n) = repeat_ x n.
Proof. revert s. induction n; intros s; simpl; [reflexivity|]. now rewrite IHn. Qed.

Lemma all_some_map_spec {A B C} (w : A -> bool) (f : A -> option B) (g : B -> C) (h : A -> C) l :
  (forall x, w x = true -> exists y, f x = Some y /\ g y = h x) -> forallb w l = true ->
  exists ys, all_some (map f l) = Some ys /\ map g ys = map h l.
Proof.
  intros H. induction l as [|x l IH]; simpl; intros W.
  - exists []. split; reflexivity.
  - apply andb_prop in W as [Wx Wl]. destruct (H x Wx) as [y [Fy Gy]], (IH Wl) as [ys [E1 E2]].
    rewrite Fy, E1. exists (y :: ys). split; [reflexivity|]. simpl. now rewrite Gy, E2.
Qed.

Lemma map_ext_forallb {A B} (f1 f2 : A -> bool) (g h : A -> B) l :
  forallb f1 l = true -> forallb f2 l = true ->
  (forall x, f1 x = true -> f2 x = true -> g x = h x) -> map g l = map h l.
Proof.
  intros F1 F2 E. rewrite forallb_forall in F1, F2.
  apply map_ext_in. intros x Hx. exact (E x (F1 x Hx) (F2 x Hx)).
Qed.

Lemma map_zipw {A B} (f : A -> B) (g : A -> A -> A) (h : B -> B -> B) l m :
  (forall x y, f (g x y) = h (f x) (f y)) -> map f (zipw g l m) = zipw h (map f l) (map f m).
Proof.
  intros H. revert m. induction l as [|x l IH]; intros [|y m]; simpl; try reflexivity.
  now rewrite H, IH.
Qed.

Lemma map_repeat_ {A B} (f : A -> B) x n : map f (repeat_ x n) = repeat_ (f x) n.
Proof. induction n; simpl; congruence. Qed.

Lemma velems_eval p v : map (eval p) (velems v) = veval p v.
Proof.
  induction v; simpl.
  - reflexivity.
  - apply map_repeat_.
  - rewrite map_map, <- IHv, map_map. reflexivity.
  - rewrite map_map, <- IHv, map_map. reflexivity.
  - rewrite <- IHv1, <- IHv2. apply map_zipw. reflexivity.
Qed.

Lemma velems_length p v : length (veval p v) = length (velems v).
Proof. now rewrite <- velems_eval, map_length. Qed.

Lemma spec_default_ok a : fst (default a) = spec_default a.
Proof. destruct a; reflexivity. Qed.

Lemma column_spec p v a :
  decl_wf v a = true ->
  exists col, column v a = Some col /\
    forall k, (k < vsize v)%nat -> cell_val false p (nth k col (CLit NaN)) = spec_entry p v a k.
Proof.
  unfold decl_wf, column, eff_decl, spec_entry. destruct (vdecl v a) as [|l|e|es|w|w j] eqn:D; intros W.
  - (* DNone: `fixed` has the ast default false, which is coerced *)
    destruct (ast_default a) as [l|] eqn:AD.
    + destruct a; try discriminate AD. injection AD as <-.
      eexists. split; [reflexivity|]. intros k Hk. rewrite nth_repeat_ by exact Hk.
      destruct (vt v); reflexivity.
    + eexists. split; [reflexivity|]. intros k Hk. rewrite nth_repeat_ by exact Hk.
      simpl. apply spec_default_ok.
  - (* DLit *) eexists. split; [reflexivity|]. intros k Hk. rewrite nth_repeat_ by exact Hk.
    simpl. now rewrite coerce_value.
  - (* DExp *) eexists. split; [reflexivity|]. intros k Hk. now rewrite nth_repeat_ by exact Hk.
  - (* DElems *) rewrite W. eexists. split; [reflexivity|]. intros k Hk.
    apply Nat.eqb_eq in W. rewrite <- W in Hk.
    destruct (nth_error es k) as [el|] eqn:N.
    + rewrite (nth_indep _ _ (elem_cell el)) by (now rewrite map_length).
      rewrite map_nth. rewrite (nth_error_nth _ _ _ N). destruct el; reflexivity.
    + apply nth_error_None in N. lia.
  - (* DVec *) rewrite W. eexists. split; [reflexivity|]. intros k Hk.
    apply Nat.eqb_eq in W. rewrite <- W in Hk.
    rewrite <- velems_eval, nth_error_map.
    destruct (nth_error (velems w) k) as [e|] eqn:N.
    + rewrite (nth_indep _ _ (CExp e)) by (now rewrite map_length).
      rewrite map_nth, (nth_error_nth _ _ _ N). reflexivity.
    + apply nth_error_None in N. lia.
  - (* DVecEl *) apply Nat.ltb_lt in W. rewrite <- velems_eval, nth_error_map.
    destruct (nth_error (velems w) j) as [e|] eqn:N.
    + eexists. split; [reflexivity|]. intros k Hk. now rewrite nth_repeat_ by exact Hk.
    + apply nth_error_None in N. lia.
Qed.

Lemma columns_spec p v (l : list attr) :
  forallb (decl_wf v) l = true ->
  exists cols, all_some (map (column v) l) = Some cols /\
    forall k, (k < vsize v)%nat ->
      map (fun col => cell_val false p (nth k col (CLit NaN))) cols = map (fun a => spec_entry p v a k) l.
Proof.
  induction l as [|a l IH]; simpl; intros W.
  - exists []. now split.
  - apply andb_prop in W as [Wa Wl].
    destruct (column_spec p v a Wa) as [col [Ec Kc]], (IH Wl) as [cols [E K]].
    rewrite Ec, E. exists (col :: cols). split; [reflexivity|].
    intros k Hk. simpl. now rewrite (Kc k Hk), (K k Hk).
Qed.

Lemma var_rows_spec p v :
  var_wf v = true ->
  exists rows, var_rows v = Some rows /\ map (map (cell_val false p)) rows = spec_rows p v.
Proof.
  intros W. destruct (columns_spec p v attr_order W) as [cols [E K]].
  unfold var_rows, spec_rows. rewrite E. eexists. split; [reflexivity|].
  rewrite map_map. apply map_ext_in. intros k Hk. apply in_seq in Hk. rewrite map_map. apply K. lia.
Qed.

Lemma cat_rows_spec p vs :
  forallb var_wf vs = true ->
  exists rows, cat_rows vs = Some rows /\
    map (map (cell_val false p)) rows = concat (map (spec_rows p) vs).
Proof.
  intros W. unfold cat_rows.
  destruct (all_some_map_spec _ _ (map (map (cell_val false p))) _ vs (var_rows_spec p) W) as [ys [E1 E2]].
  rewrite E1. eexists. split; [reflexivity|]. now rewrite concat_map, E2.
Qed.

Lemma direct_spec p M :
  model_wf M = true -> metadata false M p = Some (spec_metadata p M).
Proof.
  intros W. unfold metadata, cells, spec_metadata.
  destruct (all_some_map_spec _ _ (map (map (cell_val false p))) _ M (cat_rows_spec p) W) as [ys [E1 E2]].
  rewrite E1. now rewrite E2.
Qed.

(* whichever test chose the rebuild branch: it is harmless if the cells that pass rebuild to their value *)
Lemma metadata_branch (ok : cell -> bool) rb M p :
  (forall c, ok c = true -> cell_safe p c = true -> cell_val true p c = cell_val false p c) ->
  model_wf M = true -> safe_ok p M = true ->
  (rb = true -> match cells M with Some cs => forall3 ok cs | None => false end = true) ->
  metadata rb M p = Some (spec_metadata p M).
Proof.
  intros E W S A. rewrite <- (direct_spec p M W). destruct rb; [|reflexivity].
  specialize (A eq_refl). unfold metadata, safe_ok in *.
  destruct (cells M) as [cs|]; [|discriminate]. f_equal.
  apply (map_ext_forallb _ _ _ _ _ A S). intros cat A2 S2.
  apply (map_ext_forallb _ _ _ _ _ A2 S2). intros row A1 S1.
  exact (map_ext_forallb _ _ _ _ _ A1 S1 E).
Qed.

Lemma cell_val_rb p c :
  cell_affine c = true -> cell_safe p c = true -> cell_val true p c = cell_val false p c.
Proof. destruct c as [x|e]; simpl; [reflexivity|]. intros A S. now rewrite affine_rebuild. Qed.

Lemma metadata_spec rb M p :
  model_wf M = true -> safe_ok p M = true -> (rb = true -> affine_ok M = true) ->
  metadata rb M p = Some (spec_metadata p M).
Proof. exact (metadata_branch cell_affine rb M p (cell_val_rb p)). Qed.

Definition default_row : list ext := [NaN; NegInf; PosInf; Fin 0; Fin 0; Fin 0].

Lemma defaults_rows t n p rb :
  metadata rb [[Var t n (fun _ => DNone)]] p = Some [repeat_ default_row n].
Proof.
  unfold metadata, cells. simpl. unfold cat_rows. simpl. unfold var_rows. simpl.
  unfold column, eff_decl. simpl. rewrite app_nil_r. f_equal. f_equal.
  rewrite map_map. rewrite <- (map_const_seq default_row 0 n).
  apply map_ext_in. intros k Hk. apply in_seq in Hk. simpl.
  rewrite !nth_repeat_ by lia. simpl. destruct t; reflexivity.
Qed.

Lemma attr_tag_literal v a l :
  vdecl v a = DLit l -> attr_tag v a = lit_tag (coerce (vt v) l).
Proof. unfold attr_tag, eff_decl. now intros ->. Qed.

(* _substitute_metadata commutes with evaluation (C13_substitute) *)
Lemma subst_eval sg e p : eval p (subst sg e) = eval (map (eval p) sg) e.
Proof.
  induction e; simpl;
    repeat match goal with H : eval _ (subst _ _) = _ |- _ => rewrite H; clear H end; try reflexivity.
  rewrite <- (map_nth (eval p) sg (Cst 0) i). reflexivity.
Qed.

Lemma vsubst_veval sg v p : veval p (vsubst sg v) = veval (map (eval p) sg) v.
Proof.
  induction v; simpl; try congruence.
  - rewrite map_map. apply map_ext. intros e. apply subst_eval.
  - now rewrite subst_eval.
Qed.

Lemma is_int_trunc q :
  is_int q = true -> qZ (Z.quot (Qnum (this q)) (Zpos (Qden (this q)))) = q.
Proof.
  unfold is_int. intros H. apply Pos.eqb_eq in H. destruct q as [[n d] c]. simpl in *. subst d.
  rewrite Z.quot_1_r. apply Qc_is_canon. change (Qred (inject_Z n) == n # 1). apply Qred_correct.
Qed.

Lemma spec_entry_subst p sg v a k :
  int_ok sg v a = true ->
  spec_entry p (subst_var sg v) a k = spec_entry (map (eval p) sg) v a k.
Proof.
  unfold spec_entry, int_ok. simpl. destruct (vdecl v a) as [|l|e|es|w|w j] eqn:D; simpl; intros H;
    try reflexivity.
  - destruct (pfree e) eqn:PF; simpl.
    + now rewrite !(pfree_eval e _ PF).
    + destruct (pfree (subst sg e)) eqn:PF'; simpl in *.
      * destruct (vt v); simpl.
        -- now rewrite <- subst_eval, (pfree_eval _ p PF').
        -- rewrite (is_int_trunc _ H). now rewrite <- subst_eval, (pfree_eval _ p PF').
        -- now rewrite subst_eval.
      * now rewrite subst_eval.
  - rewrite nth_error_map. destruct (nth_error es k) as [[l|e]|]; simpl; try reflexivity.
    now rewrite subst_eval.
  - now rewrite vsubst_veval.
  - now rewrite vsubst_veval.
Qed.

Lemma spec_rows_subst p sg v :
  forallb (int_ok sg v) attr_order = true ->
  spec_rows p (subst_var sg v) = spec_rows (map (eval p) sg) v.
Proof.
  intros H. rewrite forallb_forall in H.
  apply map_ext. intros k. apply map_ext_in. intros a Ha. exact (spec_entry_subst p sg v a k (H a Ha)).
Qed.

Lemma spec_subst p sg M :
  subst_ok sg M = true ->
  spec_metadata p (apply_subst sg M) = spec_metadata (map (eval p) sg) M.
Proof.
  unfold spec_metadata, apply_subst, subst_ok. intros H. rewrite map_map.
  apply map_ext_in. intros vs Hvs. rewrite map_map. f_equal. apply map_ext_in. intros v Hv.
  apply spec_rows_subst. rewrite forallb_forall in H. specialize (H vs Hvs).
  rewrite forallb_forall in H. exact (H v Hv).
Qed.

Lemma spec_run steps : forall M p,
  steps_ok steps M = true ->
  spec_metadata p (run steps M) = spec_metadata (env_back steps p) M.
Proof.
  induction steps as [|sg r IH]; intros M p H; simpl in *; [reflexivity|].
  apply andb_prop in H as [H1 H2].
  rewrite (IH _ _ H2). now apply spec_subst.
Qed.
