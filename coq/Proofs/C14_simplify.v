(* C14 / C15 — first layer: CasADi's constructors and ca.substitute keep the value and add no
   symbol; what it means to satisfy a model; the passes that substitute constants; the loops of
   the two eliminating passes; the examples. *)
From Coq Require Import ZArith QArith Qcanon List Bool PArith Lia.
Import ListNotations.
From PV Require Import Model.C14_simplify.
Open Scope Qc_scope.

Lemma qeqb_true a b : qeqb a b = true -> a = b.
Proof. unfold qeqb. destruct (Qc_eq_dec a b); congruence. Qed.

Lemma Qc_sub_0 (a b : Qc) : a - b = 0 <-> a = b.
Proof.
  split; intro H.
  - assert (E : a = (a - b) + b) by ring. rewrite E, H. ring.
  - subst. ring.
Qed.
Lemma Qc_add_0 (a b : Qc) : a + b = 0 <-> a = - b.
Proof. assert (E : a + b = a - - b) by ring. rewrite E. apply Qc_sub_0. Qed.

Lemma same_node_sound r a b : same_node a b = true -> eval r a = eval r b.
Proof.
  destruct a, b; simpl; try discriminate. intro H. apply Pos.eqb_eq in H. now subst.
Qed.
Lemma uop_eqb_true a b : uop_eqb a b = true -> a = b.
Proof. destruct a, b; simpl; congruence. Qed.
Lemma bop_eqb_true a b : bop_eqb a b = true -> a = b.
Proof. destruct a, b; simpl; congruence. Qed.

Lemma is_equal1_sound r a b : is_equal1 a b = true -> eval r a = eval r b.
Proof.
  unfold is_equal1. intros [H | H]%orb_true_iff; [now apply same_node_sound |].
  destruct a, b; try discriminate; cbn [eval].
  - exact (qeqb_true _ _ H).
  - apply andb_true_iff in H as [->%uop_eqb_true Hd]. now rewrite (same_node_sound r _ _ Hd).
  - apply andb_true_iff in H as [->%bop_eqb_true Hd].
    apply orb_true_iff in Hd as [[H1 H2]%andb_true_iff | [[Hc H1]%andb_true_iff H2]%andb_true_iff];
      rewrite (same_node_sound r _ _ H1), (same_node_sound r _ _ H2); [reflexivity |].
    destruct o0; try discriminate; cbn; ring.
Qed.

Lemma mk_un_sound r o x : eval r (mk_un o x) = ev_un o (eval r x).
Proof.
  destruct x; simpl; try reflexivity.
  destruct o0; simpl; try reflexivity.
  destruct o; simpl; ring.
Qed.

Lemma is_zero_sound r x : is_zero x = true -> eval r x = 0.
Proof. destruct x; simpl; try discriminate. apply qeqb_true. Qed.

Definition rec_ok (rec : bop -> expr -> expr -> expr) : Prop :=
  forall r o x y, eval r (rec o x y) = ev_bin o (eval r x) (eval r y).

(* a branch taken because `is_equal1 a b` (hypothesis H): the two values are equal, the rest is ring *)
Ltac same_val r H :=
  apply (is_equal1_sound r) in H; rewrite ?mk_un_sound; cbn [eval ev_un ev_bin]; rewrite H; ring.

Lemma bin_generic_sound rec : rec_ok rec -> rec_ok (bin_generic rec).
Proof.
  intros Hrec r o x y. unfold bin_generic.
  destruct (match o with Mul => is_zero x || is_zero y | _ => false end) eqn:Hz.
  { destruct o; try discriminate. apply orb_true_iff in Hz.
    destruct Hz as [Hz | Hz]; apply (is_zero_sound r) in Hz; simpl; rewrite Hz; ring. }
  destruct (is_equal1 y x) eqn:He; [destruct o; same_val r He |].
  destruct y as [y0 | q | uo d | bo d0 d1]; try reflexivity.
  - destruct (negb (is_const x) && comm o) eqn:Hc.
    + rewrite Hrec. apply andb_true_iff in Hc. destruct Hc as [_ Hc].
      destruct o; simpl in *; try discriminate; ring.
    + destruct o; match goal with |- context [qeqb q ?c] => destruct (qeqb q c) eqn:Hq end;
        try reflexivity; apply qeqb_true in Hq; subst; simpl; ring.
  - destruct uo; try reflexivity.
    destruct o; rewrite ?mk_un_sound, Hrec; simpl; ring.
  - destruct bo; try reflexivity; destruct o; try reflexivity.
    + destruct (is_equal1 x d0) eqn:E0; [same_val r E0 |].
      destruct (is_equal1 x d1) eqn:E1; [same_val r E1 | reflexivity].
    + destruct (is_equal1 x d1) eqn:E1; [same_val r E1 | reflexivity].
Qed.

Lemma bin_const_sound rec : rec_ok rec ->
  forall r o v y, eval r (bin_const rec o v y) = ev_bin o v (eval r y).
Proof.
  intros Hrec r o v y. pose proof (bin_generic_sound rec Hrec r) as G.
  unfold bin_const. destruct o.
  - destruct (qeqb v 0) eqn:Hv. { apply qeqb_true in Hv. subst. simpl. ring. }
    destruct y; try apply G. reflexivity.
  - destruct (qeqb v 0) eqn:Hv. { apply qeqb_true in Hv. subst. rewrite mk_un_sound. simpl. ring. }
    destruct y; try apply G. reflexivity.
  - destruct (qeqb v 1) eqn:H1. { apply qeqb_true in H1. subst. simpl. ring. }
    destruct (qeqb v (- (1))) eqn:H2. { apply qeqb_true in H2. subst. rewrite mk_un_sound. simpl. ring. }
    destruct (qeqb v (Q2Qc 2)) eqn:H3.
    { apply qeqb_true in H3. subst. rewrite mk_un_sound. simpl.
      assert (E : Q2Qc 2 = 1 + 1) by (apply Qc_is_canon; reflexivity). rewrite E. ring. }
    destruct y; try apply G. reflexivity.
Qed.

Lemma bin_top_sound rec : rec_ok rec -> rec_ok (bin_top rec).
Proof.
  intros Hrec r o x y. pose proof (bin_generic_sound rec Hrec r o x y) as G.
  unfold bin_top. destruct x as [x0 | v | uo d | bo d0 d1].
  - exact G.
  - now apply bin_const_sound.
  - destruct uo.
    + destruct o; rewrite ?mk_un_sound, Hrec; simpl; ring.
    + exact G.
    + destruct o; try exact G. destruct (is_equal1 y d) eqn:He; [same_val r He | exact G].
  - destruct bo.
    + destruct o; try exact G.
      destruct (is_equal1 y d0) eqn:H0; [same_val r H0 |].
      destruct (is_equal1 y d1) eqn:H1; [same_val r H1 | exact G].
    + destruct o.
      * destruct (is_equal1 y d1) eqn:H1; [same_val r H1 | exact G].
      * destruct (is_equal1 y d0) eqn:H0; [same_val r H0 | exact G].
      * exact G.
    + exact G.
Qed.

Lemma mk_bin_f_sound n : rec_ok (mk_bin_f n).
Proof.
  induction n as [| n IH].
  - intros r o x y. reflexivity.
  - simpl. apply bin_top_sound. exact IH.
Qed.
Lemma mk_bin_sound r o x y : eval r (mk_bin o x y) = ev_bin o (eval r x) (eval r y).
Proof. apply mk_bin_f_sound. Qed.

Definition sgnq (n : bool) (q : Qc) : Qc := if n then - q else q.

Lemma eval_sgn r n e : eval r (sgn n e) = sgnq n (eval r e).
Proof. destruct n; [apply mk_un_sound | reflexivity]. Qed.

Definition upd (r : env) (s : sub) : env :=
  fun x => match lookup x s with Some v => eval r v | None => r x end.

Lemma subst_sound r s e : eval r (subst s e) = eval (upd r s) e.
Proof.
  induction e as [x | q | o a IH | o a IHa b IHb]; simpl.
  - unfold upd. destruct (lookup x s); reflexivity.
  - reflexivity.
  - now rewrite mk_un_sound, IH.
  - now rewrite mk_bin_sound, IHa, IHb.
Qed.

Fixpoint occurs (x : name) (e : expr) : bool :=
  match e with
  | Sym y => Pos.eqb x y
  | Const _ => false
  | Un _ a => occurs x a
  | Bin _ a b => occurs x a || occurs x b
  end.

Lemma eval_ext_occ r1 r2 e :
  (forall x, occurs x e = true -> r1 x = r2 x) -> eval r1 e = eval r2 e.
Proof.
  induction e as [y | q | o a IH | o a IHa b IHb]; simpl; intro H.
  - apply H. apply Pos.eqb_refl.
  - reflexivity.
  - f_equal. now apply IH.
  - f_equal; [apply IHa | apply IHb]; intros x Hx; apply H; rewrite Hx; auto using orb_true_r.
Qed.

Lemma mk_un_free x o e : occurs x e = false -> occurs x (mk_un o e) = false.
Proof.
  destruct e as [y | q | o' a | o' a b]; cbn; auto.
  destruct o'; cbn; auto. destruct o; cbn; auto.
Qed.
Lemma mk_un_occ x o e : occurs x (mk_un o e) = true -> occurs x e = true.
Proof.
  intro H. destruct (occurs x e) eqn:E; [reflexivity |]. now rewrite (mk_un_free x o e E) in H.
Qed.

Definition rec_free (rec : bop -> expr -> expr -> expr) : Prop :=
  forall x o a b, occurs x a = false -> occurs x b = false -> occurs x (rec o a b) = false.

(* closes `occurs x e = false` for e built from pieces known to be free of x *)
Ltac free := solve [cbn [occurs]; auto using mk_un_free, orb_false_intro].

Lemma bin_generic_free rec : rec_free rec -> rec_free (bin_generic rec).
Proof.
  intros Hrec x o a b Ha Hb. unfold bin_generic.
  destruct (match o with Mul => is_zero a || is_zero b | _ => false end); [reflexivity |].
  destruct (is_equal1 b a); [destruct o; free |].
  destruct b as [y0 | q | uo d | bo d0 d1]; cbn [occurs] in Hb.
  - free.
  - destruct (negb (is_const a) && comm o); [free |].
    destruct o; [destruct (qeqb q 0) | destruct (qeqb q 0) | destruct (qeqb q 1)]; free.
  - destruct uo, o; free.
  - apply orb_false_elim in Hb as [H0 H1]. destruct bo, o; try free.
    + destruct (is_equal1 a d0); [free |]. destruct (is_equal1 a d1); free.
    + destruct (is_equal1 a d1); free.
Qed.

Lemma bin_const_free rec : rec_free rec ->
  forall x o v b, occurs x b = false -> occurs x (bin_const rec o v b) = false.
Proof.
  intros Hrec x o v b Hb.
  assert (G : forall o, occurs x (match b with Const w => Const (ev_bin o v w)
                                   | _ => bin_generic rec o (Const v) b end) = false).
  { intro o'. destruct b; try reflexivity; now apply bin_generic_free. }
  unfold bin_const. destruct o.
  - destruct (qeqb v 0); [exact Hb | exact (G Add)].
  - destruct (qeqb v 0); [free | exact (G Sub)].
  - destruct (qeqb v 1); [exact Hb |]. destruct (qeqb v (- (1))); [free |].
    destruct (qeqb v (Q2Qc 2)); [free | exact (G Mul)].
Qed.

Lemma bin_top_free rec : rec_free rec -> rec_free (bin_top rec).
Proof.
  intros Hrec x o a b Ha Hb. pose proof (bin_generic_free rec Hrec x o a b Ha Hb) as G.
  unfold bin_top. destruct a as [x0 | v | uo d | bo d0 d1]; cbn [occurs] in Ha.
  - exact G.
  - now apply bin_const_free.
  - destruct uo.
    + destruct o; free.
    + exact G.
    + destruct o; try exact G. destruct (is_equal1 b d); [exact Ha | exact G].
  - apply orb_false_elim in Ha as [H0 H1]. destruct bo.
    + destruct o; try exact G.
      destruct (is_equal1 b d0); [exact H1 |]. destruct (is_equal1 b d1); [exact H0 | exact G].
    + destruct o.
      * destruct (is_equal1 b d1); [exact H0 | exact G].
      * destruct (is_equal1 b d0); [free | exact G].
      * exact G.
    + exact G.
Qed.

Lemma mk_bin_f_free n : rec_free (mk_bin_f n).
Proof.
  induction n as [| n IH]; [intros x o a b Ha Hb; cbn [mk_bin_f]; free |].
  cbn [mk_bin_f]. now apply bin_top_free.
Qed.

Lemma mk_bin_occ x o a b :
  occurs x (mk_bin o a b) = true -> occurs x a = true \/ occurs x b = true.
Proof.
  intro H. destruct (occurs x a) eqn:Ea; [now left |]. destruct (occurs x b) eqn:Eb; [now right |].
  unfold mk_bin in H. now rewrite (mk_bin_f_free _ x o a b Ea Eb) in H.
Qed.

Lemma subst_occ x s e : occurs x (subst s e) = true ->
  (occurs x e = true /\ lookup x s = None) \/
  (exists y v, occurs y e = true /\ lookup y s = Some v /\ occurs x v = true).
Proof.
  induction e as [y | q | o a IH | o a IHa b IHb]; simpl.
  - destruct (lookup y s) as [v |] eqn:L.
    + intro H. right. exists y, v. rewrite Pos.eqb_refl. auto.
    + simpl. intro H. left. apply Pos.eqb_eq in H. subst. rewrite Pos.eqb_refl. auto.
  - discriminate.
  - intro H. apply mk_un_occ in H. auto.
  - intro H. apply mk_bin_occ in H. destruct H as [H | H]; [apply IHa in H | apply IHb in H];
      (destruct H as [[H1 H2] | [y [v [H1 [H2 H3]]]]];
       [left; rewrite H1; auto using orb_true_r | right; exists y, v; rewrite H1; auto using orb_true_r]).
Qed.

Definition holds (r : env) (es : list expr) : Prop := Forall (fun e => eval r e = 0) es.
Definition facts (r : env) (l : list (name * expr)) : Prop :=
  Forall (fun p => r (fst p) = eval r (snd p)) l.
Definition pfacts (r : env) (l : list (name * pval)) : Prop :=
  Forall (fun p => match snd p with Some e => r (fst p) = eval r e | None => True end) l.

Lemma holds_cons r e es : holds r (e :: es) <-> eval r e = 0 /\ holds r es.
Proof. apply Forall_cons_iff. Qed.
Lemma facts_cons r x v l : facts r ((x, v) :: l) <-> r x = eval r v /\ facts r l.
Proof. apply Forall_cons_iff. Qed.
Lemma pfacts_cons r x v l :
  pfacts r ((x, v) :: l) <-> match v with Some e => r x = eval r e | None => True end /\ pfacts r l.
Proof. apply Forall_cons_iff. Qed.
Lemma facts_app r a b : facts r (a ++ b) <-> facts r a /\ facts r b.
Proof. apply Forall_app. Qed.
Lemma pfacts_app r a b : pfacts r (a ++ b) <-> pfacts r a /\ pfacts r b.
Proof. apply Forall_app. Qed.
Lemma facts_In r l x v : facts r l -> In (x, v) l -> r x = eval r v.
Proof. intros F H. exact (proj1 (Forall_forall _ l) F _ H). Qed.

Lemma lookup_In {B} x (l : list (name * B)) v : lookup x l = Some v -> In (x, v) l.
Proof.
  induction l as [| [y w] l IH]; simpl; try discriminate.
  destruct (Pos.eqb x y) eqn:E.
  - intro H. inversion H. subst. apply Pos.eqb_eq in E. subst. now left.
  - intro H. right. now apply IH.
Qed.

Lemma subst_under_facts r s e : facts r s -> eval r (subst s e) = eval r e.
Proof.
  intro F. rewrite subst_sound. apply eval_ext_occ. intros x _. unfold upd.
  destruct (lookup x s) eqn:L; [| reflexivity]. symmetry. eapply facts_In, lookup_In; eassumption.
Qed.

Lemma holds_subst r s es : facts r s -> (holds r (map (subst s) es) <-> holds r es).
Proof.
  intro F. unfold holds. rewrite Forall_map.
  split; apply Forall_impl; intro e; now rewrite subst_under_facts.
Qed.

Lemma pfacts_subst r s l : facts r s -> (pfacts r (subst_vals s l) <-> pfacts r l).
Proof.
  intro F. unfold pfacts, subst_vals. rewrite Forall_map.
  split; apply Forall_impl; intros [x [e |]]; cbn; try tauto;
    destruct (is_const e); cbn; try tauto; now rewrite subst_under_facts.
Qed.

Record sat (r : env) (m : model) : Prop := {
  sat_eqs : holds r (eqs m);
  sat_ieqs : holds r (ieqs m);
  sat_consts : pfacts r (consts m);
  sat_params : pfacts r (params m);
  sat_ghost : facts r (ghost m)
}.

Lemma sat_iff r m :
  sat r m <-> holds r (eqs m) /\ holds r (ieqs m) /\ (pfacts r (consts m) /\ pfacts r (params m))
              /\ facts r (ghost m).
Proof. split; [intros []; auto | intros (? & ? & [] & ?); now constructor]. Qed.
Lemma sat_Model r st de al inp cs ps es ies R g w f :
  sat r (Model st de al inp cs ps es ies R g w f)
  <-> holds r es /\ holds r ies /\ (pfacts r cs /\ pfacts r ps) /\ facts r g.
Proof. apply sat_iff. Qed.

(* one of the two value lists (C2, resp. C1) splits into what stays and the definitions D *)
Lemma sat_split_r (A B C1 C2 C2' G D : Prop) :
  (C2 <-> C2' /\ D) -> (A /\ B /\ (C1 /\ C2) /\ G <-> (A /\ B /\ (C1 /\ C2') /\ G) /\ D).
Proof.
  intros [H1 H2]. split.
  - intros (a & b & (c1 & c2) & g). destruct (H1 c2). repeat split; assumption.
  - intros ((a & b & (c1 & c2') & g) & d). repeat split; auto.
Qed.
Lemma sat_split_l (A B C1 C1' C2 G D : Prop) :
  (C1 <-> C1' /\ D) -> (A /\ B /\ (C1 /\ C2) /\ G <-> (A /\ B /\ (C1' /\ C2) /\ G) /\ D).
Proof.
  intros [H1 H2]. split.
  - intros (a & b & (c1 & c2) & g). destruct (H1 c1). repeat split; assumption.
  - intros ((a & b & (c1' & c2) & g) & d). repeat split; auto.
Qed.
Lemma and_holds_r (X D : Prop) : D -> (X /\ D <-> X).
Proof. tauto. Qed.

Lemma iff_under_r (A B C : Prop) : (C -> (A <-> B)) -> (A /\ C <-> B /\ C).
Proof. tauto. Qed.

(* the shape the substituting passes share: the equations are substituted by s, the values of
   constants and parameters (P, afterwards P') substituted or left alone, s goes to the ghost list *)
Lemma subst_pass r s es ies (P P' : Prop) g (A : Prop) :
  (facts r s -> (P' <-> P)) ->
  (A <-> (holds r es /\ holds r ies /\ P /\ facts r g) /\ facts r s) ->
  (A <-> holds r (map (subst s) es) /\ holds r (map (subst s) ies) /\ P' /\ facts r (g ++ s)).
Proof.
  intros HP ->. rewrite facts_app.
  pose proof (holds_subst r s es) as He. pose proof (holds_subst r s ies) as Hi.
  clear - HP He Hi. tauto.
Qed.

(* `solved x e v`: the equation e = 0 has one of the shapes x, x ± d, d ± x and v is what it gives
   for x — the shapes eliminate_constant_assignments and eliminable_variable_expression match *)
Definition moved (o : bop) (d : expr) : expr := match o with Sub => d | _ => mk_un Neg d end.
Inductive solved (x : name) : expr -> expr -> Prop :=
| solved_sym : solved x (Sym x) (Const 0)
| solved_l o d : o <> Mul -> solved x (Bin o (Sym x) d) (moved o d)
| solved_r o d : o <> Mul -> solved x (Bin o d (Sym x)) (moved o d).

Lemma solved_sound r x e v : solved x e v -> (eval r e = 0 <-> r x = eval r v).
Proof.
  intros [| o d Ho | o d Ho]; [reflexivity | |]; destruct o; try contradiction;
    cbn [eval ev_bin moved]; rewrite ?mk_un_sound; cbn [ev_un].
  - apply Qc_add_0.
  - apply Qc_sub_0.
  - rewrite Qcplus_comm. apply Qc_add_0.
  - rewrite Qc_sub_0. split; intro; now symmetry.
Qed.

(* `parts l u d`: the passes that replace constants or parameters by their values sort the entries
   of l into those that stay (u) and those whose value becomes a definition (d) *)
Inductive parts : list (name * pval) -> list (name * pval) -> sub -> Prop :=
| parts_nil : parts [] [] []
| parts_keep x v l u d : parts l u d -> parts ((x, v) :: l) ((x, v) :: u) d
| parts_move x e l u d : parts l u d -> parts ((x, Some e) :: l) u ((x, e) :: d).

Lemma parts_facts r l u d : parts l u d -> (pfacts r l <-> pfacts r u /\ facts r d).
Proof.
  induction 1 as [| x v l u d _ IH | x e l u d _ IH].
  - split; [intros _; split; constructor | intros _; constructor].
  - rewrite !pfacts_cons, IH. clear. tauto.
  - rewrite pfacts_cons, facts_cons, IH. clear. tauto.
Qed.

Lemma split_valued_parts l : parts l (fst (split_valued l)) (snd (split_valued l)).
Proof.
  induction l as [| [x v] l IH]; cbn [split_valued]; [constructor |].
  destruct (split_valued l) as [u d]. destruct v as [[] |]; constructor; exact IH.
Qed.
Lemma split_simple_parts l : parts l (fst (split_simple l)) (snd (split_simple l)).
Proof.
  induction l as [| [x v] l IH]; cbn [split_simple]; [constructor |].
  destruct (split_simple l) as [u d]. destruct v as [e |]; [destruct (is_const e) |]; constructor; exact IH.
Qed.
Lemma consts_parts (l : list (name * pval)) :
  existsb (fun '(_, v) => match v with None => true | _ => false end) l = false ->
  parts l [] (flat_map (fun '(x, v) => match v with Some e => [(x, e)] | None => [] end) l).
Proof.
  induction l as [| [x [e |]] l IH]; cbn [existsb flat_map app]; [constructor | | discriminate].
  intro H. apply parts_move, IH, H.
Qed.

Theorem sound_replace_param_values r m : sat r m <-> sat r (replace_param_values m).
Proof.
  unfold replace_param_values. pose proof (parts_facts r _ _ _ (split_valued_parts (params m))) as SP.
  destruct (split_valued (params m)) as [u s]. cbn [fst snd] in SP.
  rewrite (sat_iff r m), sat_Model.
  eapply subst_pass; [intro F; now rewrite !pfacts_subst by exact F | rewrite SP; clear; tauto].
Qed.

Lemma eca_match_solved al e x v : eca_match al e = Some (x, v) -> solved x e v /\ mem x al = true.
Proof.
  unfold eca_match. destruct e as [y | q | o a | o d0 d1]; try discriminate.
  - destruct (mem y al) eqn:M; [| discriminate]. intros [= <- <-]. split; [constructor | exact M].
  - destruct o; try discriminate;
      destruct d0 as [y | q | |]; try discriminate; destruct d1 as [z | q' | |]; try discriminate;
      match goal with |- context [mem ?w al] => destruct (mem w al) eqn:M end; try discriminate;
      intros [= <- <-]; (split; [constructor; discriminate | exact M]).
Qed.

Lemma eca_loop_sound r al es :
  let '(al', cs, kept) := eca_loop al es in
  holds r es <-> holds r kept /\ pfacts r cs.
Proof.
  revert al. induction es as [| e es IH]; intro al; cbn [eca_loop].
  - split; [intros _; split; constructor | intros _; constructor].
  - destruct (eca_match al e) as [[x v] |] eqn:M.
    + specialize (IH (remove1 x al)). destruct (eca_loop (remove1 x al) es) as [[al' cs] kept].
      apply eca_match_solved in M as [M _].
      rewrite holds_cons, pfacts_cons, (solved_sound r _ _ _ M), IH. clear. tauto.
    + specialize (IH al). destruct (eca_loop al es) as [[al' cs] kept].
      rewrite !holds_cons, IH. clear. tauto.
Qed.

Theorem sound_elim_const_assignments r m : sat r m <-> sat r (elim_const_assignments m).
Proof.
  unfold elim_const_assignments.
  pose proof (eca_loop_sound r (algs m) (eqs m)) as L.
  destruct (eca_loop (algs m) (eqs m)) as [[al cs] kept].
  rewrite (sat_iff r m), sat_Model, pfacts_app, L. clear. tauto.
Qed.

Lemma mem_In x l : mem x l = true <-> In x l.
Proof.
  unfold mem. rewrite existsb_exists. split.
  - intros [y [H1 H2]]. apply Pos.eqb_eq in H2. now subst.
  - intro H. exists x. split; auto. apply Pos.eqb_refl.
Qed.

Lemma filter_all {A} (f : A -> bool) l : forallb f l = true -> filter f l = l.
Proof.
  induction l as [| a l IH]; simpl; auto. intro H. apply andb_true_iff in H. destruct H as [H1 H2].
  rewrite H1. f_equal. auto.
Qed.

Lemma remove1_notin x al : ~ In x al -> remove1 x al = al.
Proof.
  intro Hn. apply filter_all, forallb_forall. intros z Hz. apply negb_true_iff, Pos.eqb_neq. now intros ->.
Qed.

Lemma remove1_length x al : NoDup al -> mem x al = true -> S (length (remove1 x al)) = length al.
Proof.
  induction al as [| y al IH]; simpl; try discriminate.
  intros ND H. inversion ND as [| ? ? Hn ND']. subst.
  destruct (Pos.eqb x y) eqn:E; simpl.
  - apply Pos.eqb_eq in E. subst. f_equal. fold (remove1 y al). now rewrite remove1_notin.
  - fold (remove1 x al). f_equal. apply IH; assumption.
Qed.

Lemma filter_notin_nil (l : list name) : filter (fun x => negb (mem x [])) l = l.
Proof. apply filter_all, forallb_forall. reflexivity. Qed.

Lemma filter_notin_cons y g l :
  filter (fun x => negb (mem x (y :: g))) l = filter (fun x => negb (mem x g)) (remove1 y l).
Proof.
  unfold remove1. induction l as [| x l IH]; [reflexivity |]. cbn [filter]. rewrite IH.
  replace (mem x (y :: g)) with (Pos.eqb x y || mem x g) by reflexivity.
  rewrite (Pos.eqb_sym y x). destruct (Pos.eqb x y); simpl; [reflexivity |].
  destruct (mem x g); reflexivity.
Qed.

Lemma keep_or_gone (g l : list name) x :
  In x l -> In x (filter (fun y => negb (mem y g)) l) \/ In x g.
Proof.
  intro H. destruct (mem x g) eqn:M; [right; now apply mem_In | left].
  apply filter_In. now rewrite M.
Qed.

Lemma filter_notin_len g : forall l, NoDup l -> NoDup g -> incl g l ->
  (length (filter (fun x => negb (mem x g)) l) + length g = length l)%nat.
Proof.
  induction g as [| y g IH]; intros l Nl Ng Hi.
  - rewrite filter_notin_nil. cbn [length]. lia.
  - inversion Ng as [| ? ? Hy Ng']. subst.
    rewrite filter_notin_cons. simpl length.
    assert (Hm : mem y l = true) by (apply mem_In; apply Hi; now left).
    pose proof (remove1_length y l Nl Hm) as Hl.
    assert (Hi' : incl g (remove1 y l)).
    { intros x Hx. unfold remove1. apply filter_In. split; [apply Hi; now right |].
      apply negb_true_iff. apply Pos.eqb_neq. intro E. subst. contradiction. }
    specialize (IH (remove1 y l) (NoDup_filter _ Nl) Ng' Hi'). lia.
Qed.

Lemma has_dup_NoDup l : has_dup l = false -> NoDup l.
Proof.
  induction l as [| x l IH]; cbn [has_dup]; [constructor |]. intro H. apply orb_false_iff in H.
  destruct H as [Hx Hl]. constructor; [| now apply IH]. intro K. apply mem_In in K. congruence.
Qed.

Lemma eca_loop_shape : forall es al,
  let '(al', cs, kept) := eca_loop al es in
  al' = filter (fun y => negb (mem y (map fst cs))) al /\ incl kept es
  /\ (NoDup al -> length al' + length es = length al + length kept)%nat.
Proof.
  induction es as [| e es IH]; intros al; cbn [eca_loop].
  - split; [symmetry; apply filter_notin_nil | split; [apply incl_refl | reflexivity]].
  - destruct (eca_match al e) as [[x v] |] eqn:M.
    + apply eca_match_solved in M as [_ Hm].
      specialize (IH (remove1 x al)). destruct (eca_loop (remove1 x al) es) as [[a1 c1] k1].
      destruct IH as [-> [I1 L]]. split; [symmetry; apply filter_notin_cons | split; [now apply incl_tl |]].
      intro ND. specialize (L (NoDup_filter _ ND)). pose proof (remove1_length x al ND Hm).
      cbn [length]. lia.
    + specialize (IH al). destruct (eca_loop al es) as [[a1 c1] k1]. destruct IH as [-> [I1 L]].
      split; [reflexivity | split; [apply incl_cons; [now left | now apply incl_tl] |]].
      intro ND. specialize (L ND). cbn [length]. lia.
Qed.

Theorem square_elim_const_assignments m : NoDup (algs m) ->
  let m' := elim_const_assignments m in
  (length (algs m') + length (eqs m) = length (algs m) + length (eqs m'))%nat
  /\ ders m' = ders m /\ states m' = states m /\ inputs m' = inputs m /\ NoDup (algs m').
Proof.
  intro ND. unfold elim_const_assignments.
  pose proof (eca_loop_shape (eqs m) (algs m)) as S.
  destruct (eca_loop (algs m) (eqs m)) as [[al cs] kept]. destruct S as [-> [_ L]].
  cbn [algs eqs ders states inputs]. split; [exact (L ND) | auto 6 using NoDup_filter].
Qed.

(* the local `hit` of extract_assignment / extract2 *)
Definition hit (mt : list name) (d : expr) (l : list name) : option name :=
  match d with Sym x => if mem x l && mem x mt then Some x else None | _ => None end.

Lemma hit_some mt d l x : hit mt d l = Some x -> d = Sym x /\ mem x l = true.
Proof.
  destruct d as [y | | |]; cbn [hit]; try discriminate.
  destruct (mem y l) eqn:M, (mem y mt); try discriminate. intros [= <-]. auto.
Qed.

(* how both matchers treat `d0 o d1`: a hit among the algebraic variables first, then among the
   states, the left operand before the right one *)
Definition choose {A} (mt al sts : list name) (o : bop) (d0 d1 : expr)
           (alg st : name -> expr -> A) (none : A) : A :=
  match hit mt d0 al with
  | Some x => alg x (moved o d1)
  | None =>
    match hit mt d1 al with
    | Some x => alg x (moved o d0)
    | None => match hit mt d0 sts with
              | Some x => st x (moved o d1)
              | None => match hit mt d1 sts with Some x => st x (moved o d0) | None => none end
              end
    end
  end.

Lemma choose_cases {A} mt al sts o d0 d1 (alg st : name -> expr -> A) none (P : A -> Prop) :
  o <> Mul ->
  (forall x v, solved x (Bin o d0 d1) v -> mem x al = true -> P (alg x v)) ->
  (forall x v, solved x (Bin o d0 d1) v -> mem x sts = true -> P (st x v)) ->
  P none -> P (choose mt al sts o d0 d1 alg st none).
Proof.
  intros Ho Ha Hs Hn. unfold choose.
  destruct (hit mt d0 al) eqn:H0. { apply hit_some in H0 as [-> M]. apply Ha; [now constructor | exact M]. }
  destruct (hit mt d1 al) eqn:H1. { apply hit_some in H1 as [-> M]. apply Ha; [now constructor | exact M]. }
  destruct (hit mt d0 sts) eqn:H2. { apply hit_some in H2 as [-> M]. apply Hs; [now constructor | exact M]. }
  destruct (hit mt d1 sts) eqn:H3; [| exact Hn].
  apply hit_some in H3 as [-> M]. apply Hs; [now constructor | exact M].
Qed.

Lemma extract_bin sts al0 al mt o d0 d1 : o <> Mul ->
  extract_assignment sts al0 al mt (Bin o d0 d1)
  = choose mt al sts o d0 d1 ExtAlg (fun _ _ => ExtState) ExtNone.
Proof. destruct o; [reflexivity | reflexivity | contradiction]. Qed.

Lemma extract_solved sts al0 al mt e x v :
  extract_assignment sts al0 al mt e = ExtAlg x v ->
  solved x e v /\ (mem x al = true \/ mem x al0 = true).
Proof.
  destruct e as [y | q | o a | o d0 d1]; try discriminate; intro H.
  - cbn [extract_assignment] in H.
    destruct (mem y sts), (mem y al0) eqn:A, (mem y mt); try discriminate.
    injection H as <- <-. split; [constructor | auto].
  - assert (Ho : o <> Mul) by (intros ->; discriminate).
    rewrite extract_bin in H by exact Ho. revert H.
    apply choose_cases; [exact Ho | | discriminate | discriminate].
    intros x' v' S M [= <- <-]. auto.
Qed.

Lemma elim_loop_sound r sts al0 mt es : forall al al' defs kept,
  elim_loop sts al0 al mt es = (al', defs, kept, false) ->
  (holds r es <-> holds r kept /\ facts r defs).
Proof.
  induction es as [| e es IH]; intros al al' defs kept; cbn [elim_loop].
  - intros [= _ <- <-]. split; [intros _; split; constructor | intros _; constructor].
  - destruct (extract_assignment sts al0 al mt e) as [| x v |] eqn:X; [| | discriminate].
    + destruct (elim_loop sts al0 al mt es) as [[[a1 d1] k1] u1] eqn:E. intros [= _ <- <- ->].
      rewrite !holds_cons, (IH _ _ _ _ E). clear. tauto.
    + destruct (elim_loop sts al0 (remove1 x al) mt es) as [[[a1 d1] k1] u1] eqn:E.
      intros [= _ <- <- ->]. apply extract_solved in X as [X _].
      rewrite holds_cons, facts_cons, (IH _ _ _ _ E), (solved_sound r _ _ _ X). clear. tauto.
Qed.

Lemma solved_occ x e v z : solved x e v -> occurs z v = true -> occurs z e = true.
Proof.
  intros [| o d _ | o d _] Ho; [discriminate | |];
    (assert (Hd : occurs z d = true) by (destruct o; first [exact Ho | exact (mk_un_occ _ _ _ Ho)]));
    cbn [occurs]; rewrite Hd; auto using orb_true_r.
Qed.

(* the defined variables were algebraic when the pass began (al0) *)
Lemma elim_loop_shape sts al0 mt : forall es al,
  let '(al', defs, kept, u) := elim_loop sts al0 al mt es in
  u = false ->
  al' = filter (fun y => negb (mem y (map fst defs))) al /\ incl kept es
  /\ (length defs + length kept = length es)%nat
  /\ (forall y, In y (map fst defs) -> In y al \/ In y al0)
  /\ (forall y v x, In (y, v) defs -> occurs x v = true -> exists e, In e es /\ occurs x e = true).
Proof.
  induction es as [| e es IH]; intros al; cbn [elim_loop].
  - intros _. split; [symmetry; apply filter_notin_nil |].
    split; [apply incl_refl | split; [reflexivity | split; [intros y [] | intros y v x []]]].
  - destruct (extract_assignment sts al0 al mt e) as [| y0 v0 |] eqn:X; [| | discriminate].
    + specialize (IH al). destruct (elim_loop sts al0 al mt es) as [[[a1 d1] k1] u1].
      intro Hu. destruct (IH Hu) as [-> [I1 [L [I2 I3]]]].
      split; [reflexivity | split; [apply incl_cons; [now left | now apply incl_tl] |]].
      split; [cbn [length]; lia | split; [exact I2 |]].
      intros y v x Hin Ho. destruct (I3 y v x Hin Ho) as [e0 [H1 H2]]. exists e0. split; [now right | exact H2].
    + specialize (IH (remove1 y0 al)). destruct (elim_loop sts al0 (remove1 y0 al) mt es) as [[[a1 d1] k1] u1].
      intro Hu. destruct (IH Hu) as [-> [I1 [L [I2 I3]]]]. apply extract_solved in X as [X Hm].
      split; [symmetry; apply filter_notin_cons | split; [now apply incl_tl |]].
      split; [cbn [length]; lia | split].
      * intros y [<- | Hy]; [now rewrite <- !mem_In |].
        destruct (I2 y Hy) as [K | K]; [left; now apply filter_In in K | now right].
      * intros y v x [Hin | Hin] Ho.
        -- inversion Hin. subst. exists e. split; [now left | exact (solved_occ _ _ _ _ X Ho)].
        -- destruct (I3 y v x Hin Ho) as [e0 [H1 H2]]. exists e0. split; [now right | exact H2].
Qed.

(* the definitions are pairwise distinct (has_dup) and were algebraic: the filter drops one
   variable for each *)
Theorem square_eliminate_vars mt m :
  NoDup (algs m) -> failed (eliminate_vars mt m) = false ->
  let m' := eliminate_vars mt m in
  (length (algs m') + length (eqs m) = length (algs m) + length (eqs m'))%nat
  /\ ders m' = ders m /\ states m' = states m /\ inputs m' = inputs m
  /\ params m' = params m /\ consts m' = consts m /\ NoDup (algs m').
Proof.
  intros ND. unfold eliminate_vars.
  pose proof (elim_loop_shape (states m) (algs m) mt (eqs m) (algs m)) as S.
  destruct (elim_loop (states m) (algs m) (algs m) mt (eqs m)) as [[[al defs] kept] u].
  destruct u; [cbn [orb failed set_failed]; congruence |]. cbn [orb].
  destruct (has_dup (map fst defs)) eqn:Hd; [cbn [failed set_failed]; congruence |]. intros _.
  destruct (S eq_refl) as [Hal [_ [L [Hin _]]]].
  assert (Hi : incl (map fst defs) (algs m)) by (intros y Hy; now destruct (Hin y Hy)).
  pose proof (filter_notin_len (map fst defs) (algs m) ND (has_dup_NoDup _ Hd) Hi) as FL.
  rewrite map_length, <- Hal in FL.
  assert (NDal : NoDup al) by (rewrite Hal; now apply NoDup_filter).
  clear S Hin Hi Hal.
  destruct defs as [| d0 defs'].
  - cbn [algs eqs ders states inputs params consts]. split; [lia | auto 7].
  - destruct (subst_fix _ _ _) as [vals conv]. cbn [algs eqs ders states inputs params consts].
    rewrite map_length. split; [lia | auto 7].
Qed.

Theorem closed_subst (D : name -> Prop) s es :
  (forall e x, In e es -> occurs x e = true -> lookup x s = None -> D x) ->
  (forall y v x, lookup y s = Some v -> occurs x v = true -> D x) ->
  forall e x, In e (map (subst s) es) -> occurs x e = true -> D x.
Proof.
  intros H1 H2 e x Hin Ho. apply in_map_iff in Hin. destruct Hin as [e0 [<- Hin]].
  apply subst_occ in Ho. destruct Ho as [[Ho L] | [y [v [Hy [L Hv]]]]].
  - eapply H1; eauto.
  - eapply H2; eauto.
Qed.

Lemma lookup_none_notin {B} x (l : list (name * B)) : lookup x l = None -> ~ In x (map fst l).
Proof.
  induction l as [| [y v] l IH]; simpl; auto.
  destruct (Pos.eqb x y) eqn:E; try discriminate. intros H [K | K].
  - subst. rewrite Pos.eqb_refl in E. discriminate.
  - now apply IH.
Qed.
Lemma lookup_some_in {B} x (l : list (name * B)) n : lookup x l = Some n -> In x (map fst l).
Proof. intro H. apply lookup_In in H. apply in_map_iff. exists (x, n). auto. Qed.

Lemma combine_fst_snd {A B} (l : list (A * B)) : combine (map fst l) (map snd l) = l.
Proof. induction l as [| [a b] l IH]; simpl; congruence. Qed.
Lemma map_fst_combine_len {A B} (xs : list A) (vs : list B) :
  length vs = length xs -> map fst (combine xs vs) = xs.
Proof.
  revert vs. induction xs as [| x xs IH]; intros [| v vs]; simpl; try discriminate; auto.
  intro H. f_equal. apply IH. congruence.
Qed.

Lemma detect_alias_fast r pc x y (n : bool) : x <> y ->
  let e := Bin (if n then Add else Sub) (Sym x) (Sym y) in
  detect_alias pc e = Some (x, y, n) /\ (eval r e = 0 <-> r x = sgnq n (r y)).
Proof.
  intro Hxy. assert (E : Pos.eqb y x = false) by (apply Pos.eqb_neq; congruence).
  destruct n; simpl; unfold detect_alias, symvar; simpl; rewrite E; simpl; split; try reflexivity.
  - apply Qc_add_0.
  - apply Qc_sub_0.
Qed.

Definition e_squares : expr := Bin Sub (Un Sq (Sym 1%positive)) (Un Sq (Sym 2%positive)).
Definition r_squares : env := fun x => if Pos.eqb x 1%positive then 1 else - (1).

Lemma slow_path_unsound :
  detect_alias [] e_squares = Some (1%positive, 2%positive, false)
  /\ eval r_squares e_squares = 0 /\ r_squares 1%positive <> r_squares 2%positive.
Proof.
  split; [vm_compute; reflexivity |]. split.
  - apply Qc_is_canon. reflexivity.
  - intro H. apply (f_equal (fun q => Qnum (this q))) in H. vm_compute in H. discriminate.
Qed.

(* '_e1 = _e2; _e2 = _e1; a3 = _e1 + 1' with both _e eliminable (1 = _e1, 2 = _e2, 3 = a3) *)
Definition m_osc : model :=
  Model [] [] [1; 2; 3]%positive [] [] []
        [Bin Sub (Sym 1%positive) (Sym 2%positive); Bin Sub (Sym 2%positive) (Sym 1%positive);
         Bin Sub (Sym 3%positive) (Bin Add (Const 1) (Sym 1%positive))] [] [] [] false false.
Definition o_elim12 : options :=
  Options false false false false false (Some [1; 2]%positive) true false true false [].

Lemma osc_not_closed :
  let m' := simplify o_elim12 m_osc in
  failed m' = false /\ warned m' = false /\ algs m' = [3%positive] /\
  existsb (fun e => occurs 1%positive e || occurs 2%positive e) (eqs m') = true.
Proof. vm_compute. repeat split; reflexivity. Qed.

(* a regular example: p(4) = 2; c(5) = 3; a1 = c + p; _e2 = a1; a3 = -_e2   (1 = a1, 2 = _e2, 3 = a3) *)
Definition m_ex : model :=
  Model [] [] [1; 2; 3]%positive [] [(5%positive, Some (Const (Q2Qc 3)))] [(4%positive, Some (Const (Q2Qc 2)))]
        [Bin Sub (Sym 1%positive) (Bin Add (Sym 5%positive) (Sym 4%positive));
         Bin Sub (Sym 2%positive) (Sym 1%positive);
         Bin Add (Sym 3%positive) (Sym 2%positive)] [] [] [] false false.
Definition r_ex : env := fun x =>
  match x with 1%positive => Q2Qc 5 | 2%positive => Q2Qc 5 | 3%positive => - Q2Qc 5
          | 4%positive => Q2Qc 2 | 5%positive => Q2Qc 3 | _ => 0 end.
Definition o_ex : options :=
  Options false false true true true (Some [2%positive]) true true true false [].

Lemma ex_sat : sat r_ex m_ex.
Proof. constructor; simpl; repeat constructor; simpl; apply Qc_is_canon; reflexivity. Qed.

Lemma ex_simplified :
  let m' := simplify o_ex m_ex in
  failed m' = false /\ warned m' = false /\ algs m' = [1%positive] /\ length (eqs m') = 1%nat /\
  arel m' = [(1%positive, [(3%positive, true)])].
Proof. vm_compute. repeat split; reflexivity. Qed.
