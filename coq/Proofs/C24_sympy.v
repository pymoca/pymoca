(* C24 — proofs about Model/C24_sympy.v: the printed characters spell the tokens, the reader returns the
   embedded expression from them (any fuel >= need), which evaluates like the flat expression; name mangling;
   the six lists. *)
From Coq Require Import List String Ascii Bool Arith Lia QArith Qcanon.
From PV Require Import Model.C24_sympy.
Import ListNotations.
Close Scope Q_scope.
Close Scope Qc_scope.
Open Scope nat_scope.
Open Scope list_scope.

Arguments sym_name : simpl never.
Arguments TIME : simpl never.

Fixpoint expr_ind' (P : expr -> Prop)
  (HVar : forall n, P (EVar n)) (HSym : forall n, P (ESym n)) (HNum : forall l v, P (ENum l v))
  (HBin : forall o l r, P l -> P r -> P (EBin o l r))
  (HUn : forall b a, P a -> P (EUn b a)) (HDer : forall a, P a -> P (EDer a))
  (HCall : forall f args, Forall P args -> P (ECall f args)) (e : expr) {struct e} : P e :=
  let rec := expr_ind' P HVar HSym HNum HBin HUn HDer HCall in
  match e with
  | EVar n => HVar n | ESym n => HSym n | ENum l v => HNum l v
  | EBin o l r => HBin o l r (rec l) (rec r)
  | EUn b a => HUn b a (rec a)
  | EDer a => HDer a (rec a)
  | ECall f args =>
      HCall f args ((fix go (l : list expr) : Forall P l :=
                       match l with
                       | [] => Forall_nil P
                       | x :: r => Forall_cons x (rec x) (go r)
                       end) args)
  end.

Lemma str_eqb_eq a : forall b, str_eqb a b = true <-> a = b.
Proof.
  induction a as [|x a IH]; intros [|y b]; cbn; split; intros H; try discriminate; try reflexivity.
  - apply andb_true_iff in H. destruct H as [H1 H2]. apply Ascii.eqb_eq in H1. apply IH in H2. now subst.
  - injection H as -> ->. rewrite Ascii.eqb_refl. cbn. now apply IH.
Qed.
Lemma str_eqb_refl a : str_eqb a a = true.
Proof. now apply str_eqb_eq. Qed.
Lemma mem_In x l : mem x l = true <-> In x l.
Proof.
  unfold mem. rewrite existsb_exists. split.
  - intros [y [Hy E]]. apply str_eqb_eq in E. now subst.
  - intros H. exists x. split; [exact H|apply str_eqb_refl].
Qed.

Lemma fmt_bin O L R :
  fmt FMT_BIN [(s_ "op", O); (s_ "left", L); (s_ "right", R)]
  = s_ "(" ++ L ++ s_ ") " ++ O ++ s_ " (" ++ R ++ s_ ")".
Proof. reflexivity. Qed.
Lemma fmt_un O A : fmt FMT_UN [(s_ "op", O); (s_ "expr", A)] = O ++ s_ " (" ++ A ++ s_ ")".
Proof. reflexivity. Qed.
Lemma fmt_der A : fmt FMT_DER [(s_ "var", A)] = s_ "sympy.sympify(" ++ A ++ s_ ").diff(self.t)".
Proof. reflexivity. Qed.
Lemma fmt_call F A :
  fmt FMT_CALL [(s_ "tree.operator.name", F); (s_ "operand_src", A)] = F ++ s_ "(" ++ A ++ s_ ")".
Proof. reflexivity. Qed.
Lemma fmt_prim L : fmt FMT_PRIM [([], L)] = L ++ [].
Proof. reflexivity. Qed.
Lemma fmt_eq L R : fmt FMT_EQ [(s_ "left", L); (s_ "right", R)] = L ++ s_ " - (" ++ R ++ s_ ")".
Proof. reflexivity. Qed.

Lemma render_app a b : render (a ++ b) = render a ++ render b.
Proof. apply flat_map_app. Qed.

Lemma render_joint B args :
  Forall (fun e => render (print_tok B e) = print B e) args ->
  render (joint [TComma] (map (print_tok B) args)) = join (s_ SEP_ARGS) (map (print B) args).
Proof.
  induction 1 as [|x r Hx Hr IH]; [reflexivity|].
  destruct r as [|y r]; [exact Hx|].
  cbn [map joint join] in *. rewrite !render_app, Hx, IH. reflexivity.
Qed.

Lemma render_print B e : render (print_tok B e) = print B e.
Proof.
  induction e as [n|n|l v|o e1 e2 IHe1 IHe2|b e IHe|e IHe|f args IHargs] using expr_ind'; cbn [print_tok print].
  - unfold ref_name. destruct (str_eqb (sym_name B n) TIME); [reflexivity|apply app_nil_r].
  - apply app_nil_r.
  - reflexivity.
  - rewrite fmt_bin, !render_app, IHe1, IHe2. destruct o; reflexivity.
  - rewrite fmt_un, !render_app, IHe. destruct b; reflexivity.
  - rewrite fmt_der, !render_app, IHe. reflexivity.
  - rewrite fmt_call, !render_app, (render_joint B args IHargs).
    unfold render. cbn [flat_map spell]. rewrite <- !app_assoc. reflexivity.
Qed.

Lemma render_print_eq B l r : render (print_tok_eq B l r) = print_eq B l r.
Proof.
  unfold print_tok_eq, print_eq. rewrite fmt_eq, !render_app, !render_print. reflexivity.
Qed.

Definition us (k : nat) : str := repeat "_"%char k.

Lemma bump_shape f : forall B n, exists k, bump f B n = n ++ us k /\ (k = 0 \/ mem n B = true).
Proof.
  induction f as [|f IH]; intros B n.
  - exists 0. cbn. rewrite app_nil_r. auto.
  - cbn. destruct (mem n B) eqn:E.
    + destruct (IH B (n ++ ["_"%char])) as [k [H _]]. exists (S k). rewrite H, <- app_assoc. auto.
    + exists 0. cbn. rewrite app_nil_r. auto.
Qed.

Definition no_shadow (B : list str) (m : str) : Prop :=
  forall b k, In b B -> m <> b ++ us (S k).

Lemma us_cancel B a b k j :
  a ++ us k = b ++ us j -> k <= j -> j = 0 \/ mem b B = true -> no_shadow B a -> a = b.
Proof.
  intros H Hle Kb Ha. replace j with ((j - k) + k) in H by lia.
  unfold us in H. rewrite repeat_app, app_assoc in H. apply app_inv_tail in H.
  destruct (j - k) as [|d] eqn:D; [now rewrite app_nil_r in H|].
  exfalso. destruct Kb as [->|Kb]; [lia|]. apply mem_In in Kb. exact (Ha b d Kb H).
Qed.

Lemma bump_inj f B a b :
  no_shadow B a -> no_shadow B b -> bump f B a = bump f B b -> a = b.
Proof.
  intros Ha Hb H.
  destruct (bump_shape f B a) as [k [Ea Ka]]. destruct (bump_shape f B b) as [j [Eb Kb]].
  rewrite Ea, Eb in H.
  destruct (Nat.le_ge_cases k j) as [Hle|Hle].
  - exact (us_cancel B a b k j H Hle Kb Ha).
  - symmetry. exact (us_cancel B b a j k (eq_sym H) Hle Ka Hb).
Qed.

Fixpoint unrepl (s : str) : str :=
  match s with
  | [] => []
  | c :: r =>
      match r with
      | [] => [c]
      | d :: r' => if Ascii.eqb c "_" && Ascii.eqb d "_" then "."%char :: unrepl r' else c :: unrepl r
      end
  end.
Fixpoint cleanb (n : str) : bool :=
  match n with
  | [] => true
  | c :: r =>
      match r with
      | [] => true
      | d :: _ => negb (Ascii.eqb c "_" && (Ascii.eqb d "_" || Ascii.eqb d ".")) && cleanb r
      end
  end.

Lemma unrepl_cons2 c d r :
  unrepl (c :: d :: r)
  = if Ascii.eqb c "_" && Ascii.eqb d "_" then "."%char :: unrepl r else c :: unrepl (d :: r).
Proof. reflexivity. Qed.
Lemma cleanb_tail c r : cleanb (c :: r) = true -> cleanb r = true.
Proof. destruct r as [|d r]; [reflexivity|]. cbn. intros H. apply andb_true_iff in H. tauto. Qed.

Lemma unrepl_repl n : cleanb n = true -> unrepl (repl n) = n.
Proof.
  induction n as [|c r IH]; [reflexivity|]. intros Hc.
  pose proof (IH (cleanb_tail _ _ Hc)) as IHr. clear IH.
  cbn [repl]. destruct (Ascii.eqb c ".") eqn:Ec.
  - apply Ascii.eqb_eq in Ec. subst c. cbn. now rewrite IHr.
  - destruct r as [|d r']; [reflexivity|].
    cbn [cleanb] in Hc. apply andb_true_iff in Hc. destruct Hc as [Hc _].
    apply negb_true_iff in Hc.
    cbn [repl] in *. destruct (Ascii.eqb d ".") eqn:Ed.
    + (* next is a dot: repl starts with "_" *)
      rewrite unrepl_cons2. rewrite orb_true_r, andb_true_r in Hc. rewrite Hc. cbn [andb].
      now rewrite IHr.
    + rewrite unrepl_cons2. rewrite orb_false_r in Hc. rewrite Hc. now rewrite IHr.
Qed.

Lemma repl_app a b : repl (a ++ b) = repl a ++ repl b.
Proof.
  induction a as [|c a IH]; [reflexivity|]. cbn. destruct (Ascii.eqb c "."); cbn; now rewrite IH.
Qed.
Lemma unclean_collides n :
  cleanb n = false -> exists m, m <> n /\ repl m = repl n.
Proof.
  induction n as [|c r IH]; [discriminate|]. destruct r as [|d r']; [discriminate|].
  cbn [cleanb]. intros H. apply andb_false_iff in H. destruct H as [H|H].
  - apply negb_false_iff, andb_true_iff in H. destruct H as [Hc Hd].
    apply Ascii.eqb_eq in Hc. subst c. apply orb_true_iff in Hd. destruct Hd as [Hd|Hd];
      apply Ascii.eqb_eq in Hd; subst d.
    + exists ("."%char :: r'). split; [discriminate|reflexivity].
    + exists ("."%char :: "_"%char :: r'). split; [discriminate|reflexivity].
  - destruct (IH H) as [m [Hm E]]. exists (c :: m). split; [congruence|].
    cbn [repl]. now rewrite E.
Qed.

Lemma repl_plain n : forall m,
  forallb (fun c => negb (Ascii.eqb c "_")) m = true -> repl n = m -> n = m.
Proof.
  induction n as [|c r IH]; intros m Hm H; [exact H|].
  cbn [repl] in H. destruct (Ascii.eqb c "."); subst m.
  - discriminate Hm.
  - cbn [forallb] in Hm. apply andb_true_iff in Hm. f_equal. now apply IH.
Qed.
Lemma sym_name_time B n : mem TIME B = false -> (sym_name B n = TIME <-> n = TIME).
Proof.
  intros HB. split.
  - unfold sym_name. intros H. destruct (bump_shape (S (List.length B)) B (repl n)) as [k [E _]].
    rewrite E in H. destruct k as [|k].
    + rewrite app_nil_r in H. now apply repl_plain in H.
    + (* a name that ends in an underscore is not "time" *)
      exfalso. unfold us in H. cbn [repeat] in H. rewrite repeat_cons, app_assoc in H.
      change TIME with (s_ "tim" ++ ["e"%char]) in H.
      apply app_inj_tail in H. destruct H as [_ H]. discriminate H.
  - intros ->. unfold sym_name. change (repl TIME) with TIME. cbn [bump]. now rewrite HB.
Qed.

Lemma time_eqb B n :
  mem TIME B = false -> str_eqb (sym_name B n) TIME = str_eqb n TIME.
Proof.
  intros HB. apply eq_true_iff_eq. rewrite !str_eqb_eq. now apply sym_name_time.
Qed.

(* the printed tokens without the blanks: what the reader is run on *)
Fixpoint ptk (B : list str) (e : expr) : list tok :=
  match e with
  | EVar n => let m := sym_name B n in if str_eqb m TIME then [TSelfT] else [TName m]
  | ESym n => [TName (sym_name B n)]
  | ENum lit v => [TNum lit v]
  | EBin o l r => TLp :: ptk B l ++ TRp :: TOp o :: TLp :: ptk B r ++ [TRp]
  | EUn neg a => TOp (if neg then Sub else Add) :: TLp :: ptk B a ++ [TRp]
  | EDer a => TSympify :: TLp :: ptk B a ++ [TRp; TDiff]
  | ECall f args => TName f :: TLp :: joint [TComma] (map (ptk B) args) ++ [TRp]
  end.

Lemma strip_app a b : strip (a ++ b) = strip a ++ strip b.
Proof. apply filter_app. Qed.

Lemma strip_joint B args :
  Forall (fun e => strip (print_tok B e) = ptk B e) args ->
  strip (joint [TComma] (map (print_tok B) args)) = joint [TComma] (map (ptk B) args).
Proof.
  induction 1 as [|x r Hx Hr IH]; [reflexivity|].
  destruct r as [|y r]; [exact Hx|].
  cbn [map joint] in *. rewrite !strip_app, Hx, IH. reflexivity.
Qed.

Lemma strip_print B e : strip (print_tok B e) = ptk B e.
Proof.
  induction e as [n|n|l v|o e1 e2 IHe1 IHe2|b e IHe|e IHe|f args IHargs] using expr_ind'; cbn [print_tok ptk]; try reflexivity.
  - destruct (str_eqb (sym_name B n) TIME); reflexivity.
  - rewrite !strip_app, IHe1, IHe2. reflexivity.
  - rewrite !strip_app, IHe. destruct b; reflexivity.
  - rewrite !strip_app, IHe. reflexivity.
  - rewrite !strip_app, (strip_joint B args IHargs). reflexivity.
Qed.

Fixpoint embed (B : list str) (e : expr) : pexpr :=
  match e with
  | EVar n => let m := sym_name B n in if str_eqb m TIME then PSelfT else PName m
  | ESym n => PName (sym_name B n)
  | ENum l v => PNum l v
  | EBin o l r => PBin o (embed B l) (embed B r)
  | EUn b a => PUn b (embed B a)
  | EDer a => PDiff (PWrap (embed B a))
  | ECall f args => PCall f (map (embed B) args)
  end.

(* a production uses at most four units of fuel (pe, pu, pa, the operator loop): 10 per node leave slack,
   an argument costs 3 more for [pargs] *)
Fixpoint need (e : expr) : nat :=
  match e with
  | EBin _ l r => 10 + need l + need r
  | EUn _ a => 10 + need a
  | EDer a => 10 + need a
  | ECall _ args => 10 + list_sum (map (fun a => 3 + need a) args)
  | _ => 10
  end.

Lemma pe_S n lvl ts :
  pe (S n) lvl ts = match pu n ts with Some (a, r) => pl n lvl a r | None => None end.
Proof. reflexivity. Qed.
Lemma pl_op n lvl acc o r : pl (S n) lvl acc (TOp o :: r) =
  match binlvl o with
  | Some p => if lvl <=? p
              then match pe n (S p) r with
                   | Some (b, r') => pl n lvl (PBin o acc b) r'
                   | None => None
                   end
              else Some (acc, TOp o :: r)
  | None => Some (acc, TOp o :: r)
  end.
Proof. reflexivity. Qed.
Lemma pu_sign n (neg : bool) r :
  pu (S n) (TOp (if neg then Sub else Add) :: r)
  = match pu n r with Some (a, r') => Some (PUn neg a, r') | None => None end.
Proof. destruct neg; reflexivity. Qed.
Definition opens (t : tok) : bool :=
  match t with TLp | TSympify | TName _ => true | _ => false end.
Lemma pu_power n t ts : opens t = true -> pu (S n) (t :: ts) = ppow (pu n) (pa n (t :: ts)).
Proof. destruct t; try discriminate; reflexivity. Qed.
Lemma pa_lp n r : pa (S n) (TLp :: r) =
  match pe n 1 r with Some (a, TRp :: r') => Some (ptr a r') | _ => None end.
Proof. reflexivity. Qed.
Lemma pa_sympify n r : pa (S n) (TSympify :: TLp :: r) =
  match pe n 1 r with Some (a, TRp :: r') => Some (ptr (PWrap a) r') | _ => None end.
Proof. reflexivity. Qed.
Lemma pa_call n f r : pa (S n) (TName f :: TLp :: r) =
  match pargs n r with Some (args, r') => Some (ptr (PCall f args) r') | None => None end.
Proof. reflexivity. Qed.
(* the tokens an operand can start with: not [TRp], the one first token [pargs] treats specially *)
Definition starts (ts : list tok) : bool :=
  match ts with
  | (TLp | TSympify | TName _ | TNum _ _ | TSelfT | TOp _) :: _ => true
  | _ => false
  end.
Lemma pargs_more n ts : starts ts = true ->
  pargs (S n) ts =
    match pe n 1 ts with
    | Some (a, TComma :: r) =>
        match pargs n r with Some (l, r') => Some (a :: l, r') | None => None end
    | Some (a, TRp :: r) => Some ([a], r)
    | _ => None
    end.
Proof.
  (* cbn first: the default branch is repeated per constructor, and folded calls are quicker to compare *)
  destruct ts as [|[] ts]; try discriminate; intros _; cbn [pargs]; reflexivity.
Qed.

(* a factor ends here: no trailer, no `(` and no operator that binds tighter than + follows *)
Definition hd_loose (ts : list tok) : bool :=
  match ts with
  | TDiff :: _ | TLp :: _ | TOp Pow :: _ | TOp Mul :: _ | TOp Div :: _ => false
  | _ => true
  end.

Ltac case_hd rest H :=
  destruct rest as [|[| | | |[]| | | | |] rest]; try discriminate H.
Ltac norm_app := repeat (progress (cbn [app]; rewrite <- ?app_assoc)).

Lemma ptr_loose a rest : hd_loose rest = true -> ptr a rest = (a, rest).
Proof. intros H. case_hd rest H; reflexivity. Qed.
Lemma ppow_loose f a rest : hd_loose rest = true -> ppow f (Some (a, rest)) = Some (a, rest).
Proof. intros H. case_hd rest H; reflexivity. Qed.
Lemma ppow_level f a o p r :
  binlvl o = Some p -> ppow f (Some (a, TOp o :: r)) = Some (a, TOp o :: r).
Proof. destruct o; (discriminate || reflexivity). Qed.
Lemma binlvl_pos o p : binlvl o = Some p -> 1 <= p.
Proof. destruct o; intros H; inversion H; lia. Qed.
Lemma ppow_pow f a r :
  ppow f (Some (a, TOp Pow :: r))
  = match f r with Some (b, r') => Some (PBin Pow a b, r') | None => None end.
Proof. reflexivity. Qed.

Lemma pl_hi n lvl acc rest :
  hd_loose rest = true -> 2 <= lvl -> pl (S n) lvl acc rest = Some (acc, rest).
Proof.
  intros H Hl. destruct lvl as [|[|lvl]]; try lia.
  case_hd rest H; reflexivity.
Qed.

Definition Inner (ts : list tok) (a : pexpr) (k : nat) : Prop :=
  forall rest m, k <= m -> pe m 1 (ts ++ TRp :: rest) = Some (a, TRp :: rest).

Lemma pu_paren_then ts a k rest n :
  Inner ts a k -> S k <= n ->
  pu (S n) (TLp :: ts ++ TRp :: rest) = ppow (pu n) (Some (ptr a rest)).
Proof.
  intros H Hn. rewrite pu_power by reflexivity.
  destruct n as [|n]; [lia|]. rewrite pa_lp, (H rest n) by lia. reflexivity.
Qed.

Lemma pu_paren ts a k rest n :
  Inner ts a k -> hd_loose rest = true -> S (S k) <= n ->
  pu n (TLp :: ts ++ TRp :: rest) = Some (a, rest).
Proof.
  intros H Hl Hn. destruct n as [|n]; [lia|].
  rewrite (pu_paren_then ts a k rest n H), (ptr_loose a rest Hl) by lia. now apply ppow_loose.
Qed.

Lemma pe_paren_hi ts a k rest lvl n :
  Inner ts a k -> hd_loose rest = true -> 2 <= lvl -> 4 + k <= n ->
  pe n lvl (TLp :: ts ++ TRp :: rest) = Some (a, rest).
Proof.
  intros H Hl Hlvl Hn. destruct n as [|n]; [lia|]. rewrite pe_S.
  rewrite (pu_paren ts a k rest n H Hl) by lia.
  destruct n as [|n]; [lia|]. now apply pl_hi.
Qed.

(* continuation form, so that one induction serves every context: what the operator loop makes of the embedded
   expression and the rest is what the reader returns on the printed tokens followed by the rest *)
Definition Reads (B : list str) (e : expr) : Prop :=
  forall rest res k n,
    hd_loose rest = true ->
    (forall m, k <= m -> pl m 1 (embed B e) rest = Some res) ->
    need e + k <= n ->
    pe n 1 (ptk B e ++ rest) = Some res.

Definition closes (ts : list tok) : bool :=
  match ts with [] | TRp :: _ | TComma :: _ => true | _ => false end.
Lemma Reads_closed B e rest m :
  Reads B e -> closes rest = true -> need e + 1 <= m ->
  pe m 1 (ptk B e ++ rest) = Some (embed B e, rest).
Proof.
  intros H Hc Hm. apply (H rest _ 1); [now destruct rest as [|[] ?]| |exact Hm].
  intros m' Hm'. destruct m' as [|m']; [lia|]. now destruct rest as [|[] ?].
Qed.
Lemma Reads_Inner B e : Reads B e -> Inner (ptk B e) (embed B e) (need e + 1).
Proof. intros H rest m. now apply Reads_closed. Qed.

Lemma need_pos e : 10 <= need e.
Proof. destruct e; cbn [need]; lia. Qed.

Lemma Reads_factor B e :
  (forall rest n, hd_loose rest = true -> need e <= S n ->
                  pu n (ptk B e ++ rest) = Some (embed B e, rest)) ->
  Reads B e.
Proof.
  intros H rest res k n Hl Hk Hn. pose proof (need_pos e).
  destruct n as [|n]; [lia|]. rewrite pe_S, (H rest n Hl) by lia. apply Hk. lia.
Qed.

Definition atom_of (t : tok) (a : pexpr) : Prop :=
  match t with
  | TNum l v => a = PNum l v | TSelfT => a = PSelfT | TName x => a = PName x | _ => False
  end.
Lemma pu_atom t a rest n :
  atom_of t a -> hd_loose rest = true -> pu (S (S n)) (t :: rest) = Some (a, rest).
Proof.
  intros Ht Hl. destruct t; try contradiction; cbn in Ht; subst a;
    case_hd rest Hl; reflexivity.
Qed.

Lemma Reads_atom B e t : ptk B e = [t] -> atom_of t (embed B e) -> Reads B e.
Proof.
  intros Hp Ht. apply Reads_factor. intros rest n Hl Hn. pose proof (need_pos e).
  rewrite Hp. destruct n as [|[|n]]; try lia. now apply pu_atom.
Qed.

Lemma ptk_starts B e rest : starts (ptk B e ++ rest) = true.
Proof.
  destruct e; cbn [ptk app]; try reflexivity.
  destruct (str_eqb (sym_name B n) TIME); reflexivity.
Qed.

Lemma pargs_ok B args :
  Forall (Reads B) args ->
  forall rest n, 2 + list_sum (map (fun a => 3 + need a) args) <= n ->
  pargs n (joint [TComma] (map (ptk B) args) ++ TRp :: rest) = Some (map (embed B) args, rest).
Proof.
  induction 1 as [|x r Hx Hr IH]; intros rest n Hn.
  - destruct n as [|n]; [lia|]. reflexivity.
  - change (list_sum (map (fun a => 3 + need a) (x :: r)))
      with (3 + need x + list_sum (map (fun a => 3 + need a) r)) in Hn.
    destruct n as [|n]; [lia|].
    destruct r as [|y r].
    + cbn [map joint]. rewrite pargs_more by apply ptk_starts.
      rewrite (Reads_Inner B x Hx rest n) by (cbn in Hn; lia). reflexivity.
    + change (joint [TComma] (map (ptk B) (x :: y :: r)))
        with (ptk B x ++ [TComma] ++ joint [TComma] (map (ptk B) (y :: r))).
      norm_app.
      rewrite pargs_more by apply ptk_starts.
      rewrite (Reads_closed B x (TComma :: _) n Hx) by (reflexivity || lia).
      cbv beta iota. rewrite (IH rest n) by lia. reflexivity.
Qed.

Lemma reads B e : Reads B e.
Proof.
  induction e as [n|n|l v|o e1 e2 IHe1 IHe2|b e IHe|e IHe|f args IHargs] using expr_ind'.
  - destruct (str_eqb (sym_name B n) TIME) eqn:E;
      eapply Reads_atom; cbn [ptk embed]; rewrite ?E; reflexivity.
  - eapply Reads_atom; reflexivity.
  - eapply Reads_atom; reflexivity.
  - pose proof (Reads_Inner B e1 IHe1) as I1. pose proof (Reads_Inner B e2 IHe2) as I2.
    intros rest res k n Hl Hk Hn. cbn [need] in Hn. cbn [ptk embed] in *.
    norm_app.
    destruct n as [|[|n]]; try lia. rewrite pe_S, (pu_paren_then _ _ _ _ n I1) by lia. cbn [ptr].
    destruct (binlvl o) as [p|] eqn:Eb.
    + (* + - * /: the operator loop reads the right operand above the operator's level *)
      pose proof (binlvl_pos o p Eb) as Hp.
      rewrite (ppow_level _ _ o p _ Eb), pl_op, Eb, (proj2 (Nat.leb_le 1 p) Hp).
      rewrite (pe_paren_hi _ _ _ rest (S p) n I2 Hl) by lia. apply Hk. lia.
    + (* ** : the power production reads a factor *)
      destruct o; try discriminate Eb.
      rewrite ppow_pow, (pu_paren _ _ _ rest n I2 Hl) by lia. apply Hk. lia.
  - apply Reads_factor. intros rest n Hl Hn. cbn [need] in Hn. cbn [ptk embed].
    norm_app.
    destruct n as [|n]; [lia|].
    rewrite pu_sign, (pu_paren _ _ _ rest n (Reads_Inner B e IHe) Hl) by lia. reflexivity.
  - (* the trailer applies to the wrapped argument *)
    apply Reads_factor. intros rest n Hl Hn. cbn [need] in Hn. cbn [ptk embed].
    norm_app.
    destruct n as [|[|n]]; try lia. rewrite pu_power by reflexivity.
    rewrite pa_sympify, (Reads_Inner B e IHe (TDiff :: rest) n) by lia. cbn [ptr].
    rewrite (ptr_loose _ rest Hl). now apply ppow_loose.
  - apply Reads_factor. intros rest n Hl Hn. cbn [need] in Hn. cbn [ptk embed].
    norm_app.
    destruct n as [|[|n]]; try lia. rewrite pu_power by reflexivity.
    rewrite pa_call, (pargs_ok B args IHargs rest n) by lia.
    rewrite (ptr_loose _ rest Hl). now apply ppow_loose.
Qed.

Lemma read_expr B e n : need e + 1 <= n -> pe n 1 (ptk B e) = Some (embed B e, []).
Proof.
  intros Hn. rewrite <- (app_nil_r (ptk B e)). apply Reads_closed; [apply reads|reflexivity|exact Hn].
Qed.

Definition need_eq (l r : expr) : nat := need l + need r + 10.
Lemma read_eq B l r n :
  need_eq l r <= n ->
  pe n 1 (ptk B l ++ TOp Sub :: TLp :: ptk B r ++ [TRp])
  = Some (PBin Sub (embed B l) (embed B r), []).
Proof.
  unfold need_eq. intros Hn.
  apply (reads B l _ _ (need r + 8)); [reflexivity| |lia].
  intros m Hm. destruct m as [|m]; [lia|]. rewrite pl_op. cbn [binlvl Nat.leb].
  rewrite (pe_paren_hi _ _ _ [] 2 m (Reads_Inner B r (reads B r))) by (try reflexivity; lia).
  destruct m as [|m]; [lia|]. reflexivity.
Qed.

Lemma py_parse_eq B l r n :
  need_eq l r <= n ->
  py_parse n (print_tok_eq B l r) = Some (PBin Sub (embed B l) (embed B r)).
Proof.
  intros Hn. unfold py_parse, print_tok_eq.
  rewrite !strip_app, !strip_print. cbn [strip filter app].
  now rewrite (read_eq B l r n Hn).
Qed.
Lemma py_parse_expr B e n :
  need e + 1 <= n -> py_parse n (print_tok B e) = Some (embed B e).
Proof.
  intros Hn. unfold py_parse. rewrite strip_print. now rewrite (read_expr B e n Hn).
Qed.

Lemma free_embed B e : pdiff_free (embed B e) = der_free e.
Proof.
  induction e as [n|n|l v|o e1 e2 IHe1 IHe2|b e IHe|e IHe|f args IHargs] using expr_ind'; cbn [embed pdiff_free der_free]; try reflexivity.
  - destruct (str_eqb (sym_name B n) TIME); reflexivity.
  - now rewrite IHe1, IHe2.
  - exact IHe.
  - induction IHargs as [|x r Hx Hr IH]; [reflexivity|]. cbn [map forallb]. now rewrite Hx, IH.
Qed.

Lemma sem_embed powf callf B E e :
  mem TIME B = false ->
  peval powf callf E (embed B e) = m_eval powf callf (pull B E false) e.
Proof.
  intros HB. induction e as [n|n|l v|o e1 e2 IHe1 IHe2|b e IHe|e IHe|f args IHargs] using expr_ind'; cbn [embed peval m_eval]; try reflexivity.
  - unfold is_time. rewrite (time_eqb B n HB). destruct (str_eqb n TIME); reflexivity.
  - rewrite IHe1, IHe2. reflexivity.
  - rewrite IHe. reflexivity.
  - cbn [pdiff_free]. rewrite free_embed, IHe. reflexivity.
  - rewrite map_map. f_equal. f_equal.
    apply map_ext_in. intros a Ha. rewrite Forall_forall in IHargs. now apply IHargs.
Qed.

Lemma picks_In p s s0 : In s (picks p s0) <-> s = s0 /\ In p (snd s0).
Proof.
  unfold picks. rewrite in_flat_map. split.
  - intros [q [Hq H]]. destruct (str_eqb q p) eqn:E; [|contradiction].
    apply str_eqb_eq in E. subst q. destruct H as [H|[]]. split; [now symmetry|exact Hq].
  - intros [-> Hp]. exists p. split; [exact Hp|]. rewrite str_eqb_refl. now left.
Qed.
Lemma by_prefix_In p syms s : In s (by_prefix p syms) <-> In s syms /\ In p (snd s).
Proof.
  unfold by_prefix. rewrite in_flat_map. split.
  - intros [s0 [H0 H]]. apply picks_In in H. destruct H as [-> H]. tauto.
  - intros [H1 H2]. exists s. split; [exact H1|]. now apply picks_In.
Qed.

Lemma v_In syms st s :
  In s (filter (fun s => match snd s with [] => true | _ => false end) syms
        ++ filter (fun s => negb (in_names s st)) (by_prefix (s_ "output") syms))
  <-> In s syms /\ (snd s = [] \/ (In (s_ "output") (snd s) /\ in_names s st = false)).
Proof.
  split.
  - intros H. apply in_app_or in H. destruct H as [H|H]; apply filter_In in H; destruct H as [H1 H2].
    + split; [exact H1|]. left. destruct (snd s); [reflexivity|discriminate].
    + apply by_prefix_In in H1. destruct H1 as [H1 H3]. apply negb_true_iff in H2.
      split; [exact H1|]. right. split; assumption.
  - intros [H1 [H2|[H2 H3]]]; apply in_or_app; [left|right]; apply filter_In.
    + now rewrite H2.
    + rewrite H3. split; [now apply by_prefix_In|reflexivity].
Qed.
