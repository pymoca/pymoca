(* C18 — the metadata rows of the expanded model: one row per scalar, in enumeration order, the
   columns being the selected elements of the variable's attribute list (in the code: the six
   CASADI_ATTRIBUTES, in that order; the model takes the list as it is given).  variable_metadata_function
   (model.py l.1366-1396) stacks exactly these rows per category (for 1 x 1 symbols `repmat` is the
   identity).  stdlib only. *)
From Coq Require Import String List Arith ZArith Bool Lia.
From PV Require Import Model.C18_expand Proofs.C18_expand.
Import ListNotations.
Open Scope nat_scope.
Open Scope list_scope.

(* rows contributed by one variable of the unexpanded model *)
Definition rows_of (v : uvar) (delay : list string) : list (list sel) :=
  if is_expanded v delay
  then map (fun idx => map (fun a => sel_attr a idx) (uattrs v)) (ndindex (iter_dims (ushape v)))
  else [map keep_attr (uattrs v)].

Lemma step_var_rows acc s v acc' s' :
  step_var (Some (acc, s)) v = Some (acc', s') ->
  map snd acc' = map snd acc ++ rows_of v (st_delay s)
  /\ map fst acc' = map fst acc ++
       (if is_expanded v (st_delay s)
        then match expand_var v with Some ex => map fst ex | None => [] end else [uname v])
  /\ (st_delay s = [] -> st_delay s' = []).
Proof.
  unfold step_var, rows_of. destruct (is_expanded v (st_delay s)).
  - destruct (expand_var v) as [ex|] eqn:E; [|discriminate].
    destruct (usize v) as [n1 n2]. intros H. injection H as <- <-.
    destruct (expand_var_spec v ex E) as (_ & R & _).
    rewrite !map_app, R. repeat split. cbn [st_delay]. intros ->. reflexivity.
  - intros H. injection H as <- <-. rewrite !map_app. now repeat split.
Qed.

Lemma fold_step_none g : fold_left step_var g None = None.
Proof. induction g; cbn; auto. Qed.

(* one category of a model without delay states: the metadata matrix of the expanded model has, for
   each variable of the unexpanded model in order, one row per element in np.ndindex order carrying
   the selected element of every attribute (or the variable's own row when it is a scalar) *)
Theorem metadata_rows_group g : forall acc s acc' s',
  fold_left step_var g (Some (acc, s)) = Some (acc', s') -> st_delay s = [] ->
  map snd acc' = map snd acc ++ flat_map (fun v => rows_of v []) g /\ st_delay s' = [].
Proof.
  induction g as [|v g IH]; intros acc s acc' s' H D; cbn [fold_left flat_map] in *.
  - inversion H; subst. now rewrite app_nil_r.
  - destruct (step_var (Some (acc, s)) v) as [[acc1 s1]|] eqn:E.
    + destruct (step_var_rows _ _ _ _ _ E) as (R & _ & D1).
      destruct (IH _ _ _ _ H (D1 D)) as (R' & D').
      split; auto. rewrite R', R, D, <- app_assoc. reflexivity.
    + rewrite fold_step_none in H. discriminate.
Qed.

Lemma rows_of_width v delay r : In r (rows_of v delay) -> length r = length (uattrs v).
Proof.
  unfold rows_of. destruct (is_expanded v delay); intros H.
  - apply in_map_iff in H as (idx & <- & _). now rewrite map_length.
  - destruct H as [<-|[]]. now rewrite map_length.
Qed.

Section RowFunction.
  Variable R : Type.
  Variable row : list sel -> R.     (* the metadata row computed from the selected attribute objects *)

  (* rows of the expanded category = per unexpanded variable, in order, the row function applied to the
     variable's attributes specialised to each element in np.ndindex order *)
  Theorem metadata_rows_commute g acc s acc' s' :
    fold_left step_var g (Some (acc, s)) = Some (acc', s') -> st_delay s = [] ->
    map row (map snd acc')
    = map row (map snd acc)
      ++ flat_map (fun v => if has_dims (ushape v)
                            then map (fun idx => row (map (fun a => sel_attr a idx) (uattrs v)))
                                     (ndindex (iter_dims (ushape v)))
                            else [row (map keep_attr (uattrs v))]) g.
  Proof.
    intros H D. destruct (metadata_rows_group g acc s acc' s' H D) as (E & _).
    rewrite E, map_app. f_equal. clear H E.
    induction g as [|v g IH]; [reflexivity|]. cbn [flat_map]. rewrite map_app. f_equal; [|exact IH].
    unfold rows_of, is_expanded. cbn [mem index_of]. rewrite orb_false_r.
    destruct (has_dims (ushape v)); [now rewrite map_map | reflexivity].
  Qed.
End RowFunction.

(* instance in the vocabulary of C13's metadata model (Model/C13_metadata.v) *)
From Coq Require Import QArith Qcanon.
From PV Require Model.C13_metadata.
Module C13 := PV.Model.C13_metadata.

(* attribute numbers are handed to Coq scaled by 64 *)
Definition ext_of (a : aval) : C13.ext :=
  match a with
  | ANum z => C13.Fin (Q2Qc (Qmake z 64))
  | ANaN => C13.NaN | APInf => C13.PosInf | ANInf => C13.NegInf
  end.
(* the cell C13's `column` puts into the metadata matrix for a numeric attribute object; None = the
   attribute is not a number (a left-over list, an error) *)
Definition c13_cell (x : sel) : option C13.cell :=
  match x with SVal a => Some (C13.CLit (ext_of a)) | _ => None end.
Definition c13_row (r : list sel) : list (option C13.cell) := map c13_cell r.

(* C13's column of a size-1 Real variable declared with the finite literal q is exactly that cell *)
Lemma c13_column_literal (d : C13.attr -> C13.decl) (a : C13.attr) (q : Qc) :
  d a = C13.DLit (C13.LReal q) ->
  C13.column (C13.Var C13.TReal 1 d) a = Some [C13.CLit (C13.Fin q)].
Proof. intros H. unfold C13.column, C13.eff_decl. cbn [C13.vdecl C13.vt C13.vsize]. rewrite H. reflexivity. Qed.

(* ... and the default cells of an attribute that is not given are C13's defaults *)
Lemma c13_column_default (d : C13.attr -> C13.decl) (a : C13.attr) :
  d a = C13.DNone ->
  C13.column (C13.Var C13.TReal 1 d) a = Some [C13.CLit (fst (C13.default a))].
Proof.
  intros H. unfold C13.column, C13.eff_decl. cbn [C13.vdecl C13.vt C13.vsize]. rewrite H.
  destruct a; reflexivity.
Qed.
