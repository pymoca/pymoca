(* C17 — AliasRelation.remove and histories of add / remove / copy over several relations:
   remove resets exactly the class of the removed canonical variable and its mirror class to
   singletons, all invariants are preserved by every legal operation, and an operation on one
   relation leaves every other relation (in particular a copy or its source) unchanged. *)
From stdpp Require Import gmap.
From PV Require Import Lib.Closure Model.C17_alias Proofs.C17_alias Proofs.C17_canon.

Lemma del_fold_lookup {V} (m : gmap svar V) (R : gset svar) (k : svar) :
  set_fold (fun v (acc : gmap svar V) => delete v acc) m R !! k = if decide (k ∈ R) then None else m !! k.
Proof.
  apply set_fold_lookup. intros v acc. case_decide as E.
  - rewrite E. apply lookup_delete.
  - by apply lookup_delete_ne.
Qed.

Definition removed_set (r : rel) (a : svar) : gset svar := cls (al r) a ∪ cls (al r) (tog a).

Lemma remove_unfold (r : rel) (p : positive) : p ∈ cv r →
  remove r (false, p) =
  Rel (set_fold (fun v (acc : amap) => delete v acc) (al r) (removed_set r (false, p)))
      (set_fold (fun v (acc : cmapT) => delete v acc) (cm r) (removed_set r (false, p)))
      (cv r ∖ {[p]}).
Proof. intros Hp. unfold remove. cbn. rewrite decide_True by done. done. Qed.

Lemma remove_noop_neg (r : rel) (p : positive) : remove r (true, p) = r.
Proof. done. Qed.
Lemma remove_noop_notcanon (r : rel) (a : svar) : a.2 ∉ cv r → remove r a = r.
Proof. intros H. unfold remove. destruct a as [[] p]; [done|]. cbn in *. by rewrite decide_False. Qed.

Lemma cls_remove (r : rel) (p : positive) (k : svar) : p ∈ cv r →
  cls (al (remove r (false, p))) k =
    if decide (k ∈ removed_set r (false, p)) then {[k]} else cls (al r) k.
Proof.
  intros Hp. rewrite remove_unfold by done. cbn [al]. unfold cls at 1.
  rewrite del_fold_lookup. case_decide; done.
Qed.

Lemma canon_remove (r : rel) (p : positive) (k : svar) : p ∈ cv r →
  canon (cm (remove r (false, p))) k =
    if decide (k ∈ removed_set r (false, p)) then (k.2, k.1) else canon (cm r) k.
Proof.
  intros Hp. rewrite remove_unfold by done. cbn [cm]. unfold canon at 1.
  rewrite del_fold_lookup. case_decide; done.
Qed.

Lemma removed_tog (r : rel) (a k : svar) : al_ok r → k ∈ removed_set r a ↔ tog k ∈ removed_set r a.
Proof.
  intros (_ & Hs & _). unfold removed_set.
  rewrite !elem_of_union, (sym_mem _ Hs a k), (sym_mem _ Hs a (tog k)), tog_tog. tauto.
Qed.

Lemma removed_closed (r : rel) (a k v : svar) :
  al_ok r → v ∈ cls (al r) k → v ∈ removed_set r a → k ∈ removed_set r a.
Proof. intros Hal. apply inv_closed_union, Hal. Qed.

Lemma al_ok_remove (r : rel) (a : svar) : al_ok r → al_ok (remove r a).
Proof.
  intros Hal. destruct a as [[] p]; [done|].
  destruct (decide (p ∈ cv r)) as [Hp|Hp]; [|by rewrite remove_noop_notcanon].
  pose proof Hal as ([Hr Hc] & Hs & Hcons).
  split; [split|split].
  - intros k. rewrite cls_remove by done. case_decide; [by apply elem_of_singleton|apply Hr].
  - intros k v. rewrite !cls_remove by done. case_decide as Hk.
    + intros ->%elem_of_singleton. by rewrite decide_True.
    + intros Hv. rewrite decide_False; [by apply Hc|].
      intros HvR. by apply Hk, (removed_closed r (false, p) k v).
  - intros k. rewrite !cls_remove by done.
    rewrite <- (decide_ext _ _ _ _ (removed_tog r (false, p) k Hal)).
    case_decide; [by rewrite togs_singleton|apply Hs].
  - intros k. rewrite cls_remove by done. case_decide.
    + intros ?%elem_of_singleton. by eapply tog_ne.
    + apply Hcons.
Qed.

Lemma canon_ok_remove (r : rel) (a : svar) : al_ok r → canon_ok r → canon_ok (remove r a).
Proof.
  intros Hal (C1 & C2 & C3). destruct a as [[] p]; [done|].
  destruct (decide (p ∈ cv r)) as [Hp|Hp]; [|by rewrite remove_noop_notcanon].
  split; [|split].
  - intros k. rewrite canon_remove, cls_remove by done. case_decide; [|apply C1].
    destruct k. by apply elem_of_singleton.
  - intros k v. rewrite cls_remove, !canon_remove by done. case_decide as Hk.
    + intros ->%elem_of_singleton. by rewrite decide_True.
    + intros Hv. rewrite decide_False; [by apply C2|].
      intros HvR. by apply Hk, (removed_closed r (false, p) k v).
  - intros k. rewrite !canon_remove by done.
    rewrite <- (decide_ext _ _ _ _ (removed_tog r (false, p) k Hal)).
    case_decide; [by destruct k as [[] q]|apply C3].
Qed.

Definition rel_ok (r : rel) : Prop := al_ok r ∧ canon_ok r.
Definition all_ok (rs : list rel) : Prop := Forall rel_ok rs.

(* an Add is legal when it does not relate a variable to its own negation *)
Definition legal_op (rs : list rel) (o : op) : Prop :=
  match o with
  | Add i a b => ∀ r, rs !! i = Some r → tog b ∉ cls (al r) a
  | _ => True
  end.
Fixpoint legal_ops (rs : list rel) (ops : list op) : Prop :=
  match ops with
  | [] => True
  | o :: ops' => legal_op rs o ∧ legal_ops (step rs o) ops'
  end.

Lemma upd_all_ok rs i f : all_ok rs → (∀ r, rs !! i = Some r → rel_ok r → rel_ok (f r)) → all_ok (upd rs i f).
Proof.
  intros Hall Hf. unfold upd. destruct (rs !! i) as [r|] eqn:E; [|done].
  apply Forall_insert; [done|]. apply Hf; [done|]. by eapply Forall_lookup_1.
Qed.

Lemma step_all_ok rs o : all_ok rs → legal_op rs o → all_ok (step rs o).
Proof.
  intros Hall Hl. destruct o as [i a b|i a|i]; cbn [step].
  - apply upd_all_ok; [done|]. intros r Hr [H1 H2]. specialize (Hl r Hr).
    split; [by apply al_ok_add|by apply canon_ok_add].
  - apply upd_all_ok; [done|]. intros r _ [H1 H2].
    split; [by apply al_ok_remove|by apply canon_ok_remove].
  - destruct (rs !! i) as [r|] eqn:E; [|done].
    apply Forall_app. split; [done|]. constructor; [|constructor]. by eapply Forall_lookup_1.
Qed.

Lemma fold_all_ok ops : ∀ rs, all_ok rs → legal_ops rs ops → all_ok (fold_left step ops rs).
Proof.
  induction ops as [|o ops IH]; intros rs Hall Hl; [done|].
  destruct Hl as [H1 H2]. cbn [fold_left]. apply IH; [by apply step_all_ok|done].
Qed.

Lemma all_ok0 : all_ok [empty_rel].
Proof. constructor; [split; [apply al_ok_empty|apply canon_ok_empty]|constructor]. Qed.

(* every relation reachable by a legal history of add / remove / copy satisfies all invariants *)
Theorem history_invariants ops : legal_ops [empty_rel] ops → all_ok (run_ops ops).
Proof. intros Hl. apply fold_all_ok; [apply all_ok0|done]. Qed.

(* independence: an operation addressed to relation i changes no other relation that already
   exists — in particular a copy and its source evolve independently *)
Theorem step_frame rs o j r :
  rs !! j = Some r →
  match o with Add i _ _ | Remove i _ => i ≠ j | Copy _ => True end →
  step rs o !! j = Some r.
Proof.
  intros Hj Hne. destruct o as [i a b|i a|i]; cbn [step]; unfold upd.
  - destruct (rs !! i); [|done]. by rewrite list_lookup_insert_ne.
  - destruct (rs !! i); [|done]. by rewrite list_lookup_insert_ne.
  - destruct (rs !! i); [|done]. by rewrite lookup_app_l by (by eapply lookup_lt_Some).
Qed.

(* a copy starts out equal to its source *)
Theorem copy_equal rs i r : rs !! i = Some r → step rs (Copy i) !! length rs = Some r.
Proof.
  intros Hi. cbn [step]. rewrite Hi. rewrite lookup_app_r by done.
  by rewrite Nat.sub_diag.
Qed.

(* what remove does to the answers of aliases() and canonical_signed() *)
Theorem remove_spec (r : rel) (p : positive) (k : svar) : p ∈ cv r →
  let R := q_aliases r (false, p) ∪ q_aliases r (true, p) in
  (k ∈ R → q_aliases (remove r (false, p)) k = {[k]} ∧ q_canon (remove r (false, p)) k = (k.2, k.1)) ∧
  (k ∉ R → q_aliases (remove r (false, p)) k = q_aliases r k ∧ q_canon (remove r (false, p)) k = q_canon r k) ∧
  cv (remove r (false, p)) = cv r ∖ {[p]}.
Proof.
  intros Hp R. unfold q_aliases, q_canon. split; [|split].
  - intros Hk. rewrite cls_remove, canon_remove by done. by rewrite !decide_True.
  - intros Hk. rewrite cls_remove, canon_remove by done. by rewrite !decide_False.
  - by rewrite remove_unfold.
Qed.
