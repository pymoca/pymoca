(* C14 — get_derivative's chain rule (`dexpr`) computes the time derivative of the expression *)
From Coq Require Import ZArith QArith Qcanon List Bool PArith.
Import ListNotations.
From PV Require Import Model.C14_simplify Proofs.C14_simplify.
Open Scope Qc_scope.

(* derivative of e along a trajectory with values r and time derivatives dr (dual numbers) *)
Fixpoint eval_d (r dr : env) (e : expr) : Qc :=
  match e with
  | Sym x => dr x
  | Const _ => 0
  | Un Neg a => - eval_d r dr a
  | Un Twice a => eval_d r dr a + eval_d r dr a
  | Un Sq a => (eval r a + eval r a) * eval_d r dr a
  | Bin Add a b => eval_d r dr a + eval_d r dr b
  | Bin Sub a b => eval_d r dr a - eval_d r dr b
  | Bin Mul a b => eval_d r dr a * eval r b + eval r a * eval_d r dr b
  end.

(* a differentiated name x (dm maps it to its symbol der(x)) has derivative r(der(x)); every other
   symbol is constant in time *)
Definition dr_of (r : env) (dm : list (name * name)) : env :=
  fun x => match lookup x dm with Some dx => r dx | None => 0 end.

(* an eliminated x (no der symbol, recorded definition v) has the derivative get_derivative
   computes for v with one unit of fuel less *)
Definition dr_look (r : env) (dm : list (name * name)) (defs : list (name * expr)) (f : nat) : env :=
  fun x => match lookup x dm with
           | Some dx => r dx
           | None => match lookup x defs with Some v => eval r (dexpr f dm defs v) | None => 0 end
           end.

Lemma dexpr_look f dm defs r e :
  eval r (dexpr (S f) dm defs e) = eval_d r (dr_look r dm defs f) e.
Proof.
  induction e as [x | q | o a IH | o a IHa b IHb]; simpl in *.
  - unfold dr_look. destruct (lookup x dm); [reflexivity |]. destruct (lookup x defs); reflexivity.
  - reflexivity.
  - destruct o; rewrite ?mk_bin_sound, ?mk_un_sound; simpl; rewrite ?mk_un_sound; simpl; rewrite IH; ring.
  - destruct o; rewrite ?mk_bin_sound; simpl; rewrite ?mk_bin_sound; simpl; rewrite IHa, IHb; ring.
Qed.
