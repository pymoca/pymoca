(* C21 — codegen mode: the cache file only names four shared libraries that save_model overwrites in
   place.  With the step order since ee3ded2 (remove the cache file first) a complete cache file always
   sits next to the four libraries it was written with; with the old order it does not. *)
From Coq Require Import List Arith Bool Lia.
From PV Require Import Lib.Prefix Model.C21_crash Proofs.C21_crash.
Import ListNotations.

Definition all4 (m : modelid) : list (option modelid) := [Some m; Some m; Some m; Some m].

(* a complete dump that is a prefix of another dump is that dump *)
Lemma complete_prefix_eq vr o s vr' o' s' n :
  firstn n (dump (db_of vr o s)) = dump (db_of vr' o' s') -> vr' = vr /\ o' = o /\ s' = s.
Proof.
  intros E. pose proof (decode_firstn (db_of vr o s) n) as Hd.
  rewrite E in Hd. unfold decode in Hd. rewrite (dump_accepted (db_of vr' o' s')) in Hd.
  destruct (skipn n _); [|discriminate]. injection Hd as Hv. unfold db_of in Hv. inversion Hv. auto.
Qed.

(* load_model only returns a model from a complete, current cache file *)
Lemma load_inr t w o e m : Inv w -> load_model t w o e = inr m ->
  exists mt vr, cfile w = Some (dump (db_of vr o (src w)), mt).
Proof.
  intros [_ Hf]. unfold load_model, load_gen. destruct (cfile w) as [[bs mt]|]; [|discriminate].
  destruct Hf as (_ & vr & o' & s & suf & Hd & Hs).
  destruct (mt <? smt w) eqn:Elt; [discriminate|]. apply Nat.ltb_ge in Elt.
  rewrite (decode_prefix _ _ _ Hd). destruct suf as [|b suf].
  - rewrite app_nil_r in Hd. subst bs. rewrite decode_db_of, (Hs eq_refl Elt).
    destruct (vr =? ver w); cbn [negb]; [|discriminate].
    destruct (o' =? o) eqn:Eo; cbn [negb]; [|discriminate]. apply Nat.eqb_eq in Eo. subst o'. eauto.
  - destruct (load_route t (eof_exc e)); discriminate.
Qed.

Definition CInv (c : cworld) : Prop :=
  Inv (base c) /\ length (libs c) = 4 /\
  forall bs mt vr o s, cfile (base c) = Some (bs, mt) -> bs = dump (db_of vr o s) -> libs c = all4 (s, o).

Definition cgood (c : cworld) (o : nat) (r : coutcome) : Prop :=
  match r with
  | CLoaded ls => ls = all4 (src (base c), o)
  | CRecompiled m => m = (src (base c), o)
  | CRaised _ => False
  | CDied => True
  end.

Lemma set_nth_length {A} (l : list A) i x : length (set_nth l i x) = length l.
Proof. revert i. induction l; intros [|i]; cbn; auto. Qed.

Lemma fold_set_length (m : modelid) ns : forall l : list (option modelid),
  length (fold_left (fun l i => set_nth l i (Some m)) ns l) = length l.
Proof. induction ns as [|n ns IH]; intros l; cbn; [reflexivity|]. rewrite IH. apply set_nth_length. Qed.

(* the step order since ee3ded2: cache file removed first *)
Lemma CInv_partial c o j : CInv c -> CInv (cg_partial true c o j).
Proof.
  intros (Hi & Hl & Hc). unfold cg_partial. destruct j as [|k]; [exact (conj Hi (conj Hl Hc))|].
  cbv zeta iota. destruct (k <=? 4) eqn:Ek.
  - split; [apply Inv_no_file, Hi|]. split; [cbn [libs]; rewrite fold_set_length; exact Hl|].
    cbn. intros; discriminate.
  - apply Nat.leb_gt in Ek. split; [cbn [base]; apply Inv_partial, Inv_no_file, Hi|].
    split; [cbn [libs]; rewrite fold_set_length; exact Hl|].
    cbn [base libs]. intros bs mt vr o' s Hf Hb.
    replace (Nat.min k 4) with 4 by lia.
    destruct (libs c) as [|l0 [|l1 [|l2 [|l3 [|? ?]]]]]; try discriminate. cbn [seq fold_left set_nth].
    destruct (k - 4) as [|q] eqn:Eq; [lia|]. cbn [partial_write set_cfile cfile src ver clock smt] in Hf.
    injection Hf as Hbs _. subst bs.
    destruct (complete_prefix_eq _ _ _ _ _ _ _ Hb) as (_ & -> & ->). reflexivity.
Qed.

Lemma src_cg_partial rf c o j : src (base (cg_partial rf c o j)) = src (base c).
Proof.
  unfold cg_partial. destruct (if rf then j else S j) as [|k]; [reflexivity|].
  destruct (k <=? 4); cbn [base]; [destruct rf; reflexivity|]. rewrite src_partial. destruct rf; reflexivity.
Qed.

Lemma cg_transfer_good t c o e j : routes_ok t = true -> CInv c ->
  cgood c o (snd (cg_transfer_cut true t c o e j)) /\ CInv (fst (cg_transfer_cut true t c o e j)).
Proof.
  intros Hr Hc. pose proof Hc as (Hi & _ & Hlibs). unfold cg_transfer_cut.
  destruct (load_cases t (base c) o e Hr Hi) as [El|(x & -> & ->)].
  - destruct (load_inr t (base c) o e _ Hi El) as (mt & vr & Hf). rewrite El.
    split; [exact (Hlibs _ mt vr o (src (base c)) Hf eq_refl)|exact Hc].
  - destruct (j <? cg_nsteps true (base c) o); (split; [cbn [snd cgood]; auto|apply CInv_partial, Hc]).
Qed.

Lemma cg_step_good t c p : routes_ok t = true -> CInv c ->
  Forall (cgood c (match p with CTransfer o _ | CCrashT o _ _ => o | _ => 0 end)) (snd (cg_step true t c p)) /\
  CInv (fst (cg_step true t c p)).
Proof.
  intros Hr Hc. destruct p as [| |o e|o e j]; cbn [cg_step].
  - split; [constructor|]. destruct Hc as (Hi & Hl & Hf). exact (conj (Inv_edit (base c) Hi) (conj Hl Hf)).
  - split; [constructor|exact Hc].
  - rewrite let_pair. destruct (cg_transfer_good t c o e (cg_nsteps true (base c) o) Hr Hc) as [G I'].
    split; [repeat constructor; exact G|exact I'].
  - rewrite let_pair. destruct (cg_transfer_good t c o e j Hr Hc) as [G I'].
    split; [repeat constructor; exact G|exact I'].
Qed.

Fixpoint cg_all_good (t : tables) (c : cworld) (h : list cop) : Prop :=
  match h with
  | [] => True
  | p :: h' =>
      Forall (cgood c (match p with CTransfer o _ | CCrashT o _ _ => o | _ => 0 end)) (snd (cg_step true t c p)) /\
      cg_all_good t (fst (cg_step true t c p)) h'
  end.

Lemma CInv_cw0 : CInv cw0.
Proof. split; [exact Inv_w0|]. split; [reflexivity|]. cbn. intros; discriminate. Qed.

Lemma cg_all_good_from t h : routes_ok t = true -> forall c, CInv c -> cg_all_good t c h.
Proof.
  intros Hr. induction h as [|p h IH]; intros c Hc; [exact I|].
  destruct (cg_step_good t c p Hr Hc) as [G I']. split; [exact G|apply IH, I'].
Qed.
