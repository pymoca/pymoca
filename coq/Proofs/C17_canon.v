(* C17 — one relation under a legal history of adds: canonical_signed is class-consistent
   (canon_ok), both invariants are kept, aliases() is the signed closure of the added pairs. *)
From stdpp Require Import gmap.
From PV Require Import Lib.Closure Model.C17_alias Proofs.C17_alias.

(* what canonical_signed must satisfy *)
Definition flipc (c : positive * bool) : positive * bool := (c.1, negb c.2).
Definition canon_ok (r : rel) : Prop :=
  (∀ k, ((canon (cm r) k).2, (canon (cm r) k).1) ∈ cls (al r) k) ∧
  (∀ k v, v ∈ cls (al r) k → canon (cm r) v = canon (cm r) k) ∧
  (∀ k, canon (cm r) (tog k) = flipc (canon (cm r) k)).

Definition al_ok (r : rel) : Prop := inv (al r) ∧ sym (al r) ∧ consistent (al r).

Lemma al_ok_empty : al_ok empty_rel.
Proof. split; [apply inv_empty|split; [apply sym_empty|apply consistent_empty]]. Qed.

Lemma canon_ok_empty : canon_ok empty_rel.
Proof.
  split; [|split]; cbn [al cm empty_rel]; intros k.
  - unfold canon. rewrite lookup_empty, cls_empty. destruct k. by apply elem_of_singleton.
  - intros v. rewrite cls_empty. by intros ->%elem_of_singleton.
  - unfold canon. rewrite !lookup_empty. by destruct k as [[] p].
Qed.

Lemma add_unfold (r : rel) (a b : svar) : b ∉ cls (al r) a →
  add r a b =
  Rel (add_al (al r) a b)
      (set_fold (fun v (acc : cmapT) =>
           <[tog v := ((canon (cm r) a).1, negb (canon (cm r) a).2)]> (<[v := ((canon (cm r) a).1, (canon (cm r) a).2)]> acc))
         (cm r) (cls (add_al (al r) a b) a))
      ((cv r ∪ {[(canon (cm r) a).1]}) ∖ {[(canon (cm r) b).1]}).
Proof.
  intros Hb. unfold add. rewrite decide_False by done.
  destruct (canon (cm r) a) as [ca sa], (canon (cm r) b) as [cb sb]. reflexivity.
Qed.

Lemma canon_add (r : rel) (a b k : svar) :
  al_ok r → tog b ∉ cls (al r) a → b ∉ cls (al r) a →
  canon (cm (add r a b)) k =
    if decide (k ∈ cls (al r) a ∪ cls (al r) b) then canon (cm r) a
    else if decide (tog k ∈ cls (al r) a ∪ cls (al r) b) then flipc (canon (cm r) a)
    else canon (cm r) k.
Proof.
  intros (Hi & Hs & Hc) Hleg Hnb. rewrite add_unfold by done. cbn [cm]. unfold canon at 1.
  rewrite cls_add_al, decide_True by (done || apply elem_of_union_l, Hi).
  rewrite repoint_lookup' by by apply merged_disjoint.
  case_decide; [by destruct (canon (cm r) a)|]. by case_decide.
Qed.

Lemma add_same (r : rel) a b : b ∈ cls (al r) a → add r a b = r.
Proof. intros H. unfold add. by rewrite decide_True. Qed.

Lemma al_add (r : rel) a b : al (add r a b) = add_al (al r) a b.
Proof.
  unfold add, add_al. case_decide; [done|].
  destruct (canon (cm r) a), (canon (cm r) b). reflexivity.
Qed.

Lemma al_ok_add r a b : al_ok r → tog b ∉ cls (al r) a → al_ok (add r a b).
Proof.
  intros (Hi & Hs & Hc) Hl. unfold al_ok. rewrite al_add.
  by apply add_al_signed.
Qed.

Lemma canon_ok_add r a b : al_ok r → canon_ok r → tog b ∉ cls (al r) a → canon_ok (add r a b).
Proof.
  intros Hal (C1 & C2 & C3) Hleg.
  destruct (decide (b ∈ cls (al r) a)) as [Hb|Hb]; [by rewrite add_same|].
  pose proof Hal as (Hi & Hs & Hc).
  pose proof (merged_disjoint _ Hi Hs Hc a b Hleg) as Hdisj.
  pose proof (fun k => canon_add r a b k Hal Hleg Hb) as Hcan.
  pose proof (fun k => cls_add_al _ Hi Hs Hc a b Hleg k) as Hcls. rewrite <- al_add in Hcls.
  set (A' := cls (al r) a ∪ cls (al r) b) in *.
  repeat split.
  - intros k. rewrite Hcan, Hcls.
    case_decide as Hk; [apply elem_of_union_l, C1|].
    case_decide as Htk; [|apply C1].
    apply (proj2 (mirror_union _ Hs a b _)), elem_of_union_l.
    unfold flipc, tog. cbn. rewrite negb_involutive. apply C1.
  - intros k v. rewrite !Hcan, Hcls.
    case_decide as Hk.
    + intros Hv. by rewrite decide_True.
    + case_decide as Htk.
      * intros Hv%(mirror_union _ Hs a b v). rewrite decide_False by (intros Hv2; by apply (Hdisj v)).
        by rewrite decide_True.
      * intros Hv. rewrite !decide_False; [by apply C2| |].
        -- intros Hv2. apply Htk, (inv_closed_union _ _ (tog v)); [done| |done]. by apply mem_tog.
        -- intros Hv2. by apply Hk, (inv_closed_union _ _ v).
  - intros k. rewrite !Hcan, tog_tog.
    destruct (decide (k ∈ A')) as [Hk|Hk].
    + by rewrite decide_False by by apply Hdisj.
    + case_decide; [|apply C3]. unfold flipc. cbn. rewrite negb_involutive. by destruct (canon (cm r) a).
Qed.

(* legal: no add relates a variable to its own negation *)
Fixpoint legalR (P : list (svar * svar)) (r : rel) : Prop :=
  match P with
  | [] => True
  | (a, b) :: P' => tog b ∉ cls (al r) a ∧ legalR P' (add r a b)
  end.
Definition runR (P : list (svar * svar)) (r : rel) : rel := fold_left (fun r '(a, b) => add r a b) P r.

Lemma runR_ok P : ∀ r, al_ok r → canon_ok r → legalR P r → al_ok (runR P r) ∧ canon_ok (runR P r).
Proof.
  induction P as [|[a b] P IH]; intros r H1 H2 Hl; [done|].
  destruct Hl as [Hl1 Hl2]. cbn [runR fold_left]. apply IH; [by apply al_ok_add|by apply canon_ok_add|done].
Qed.

Lemma runR_merges P : ∀ (r : rel) (m : amap), ext_eq (al r) m → al_ok r → legalR P r →
  ext_eq (al (runR P r)) (fold_left (fun m '(a, b) => merge m a b) (dbl P) m).
Proof.
  induction P as [|[a b] P IH]; intros r m E Hal Hl; [exact E|].
  destruct Hl as [Hl1 Hl2]. pose proof Hal as (Hi & Hs & Hc). cbn [runR fold_left dbl flat_map app].
  apply IH; [|by apply al_ok_add|done].
  intros k. rewrite al_add, add_al_double_merge by done. by apply merge_ext, merge_ext.
Qed.

Lemma canon_ok_queries (r : rel) k v : canon_ok r →
  (v ∈ q_aliases r k → q_canon r v = q_canon r k) ∧
  (tog v ∈ q_aliases r k → q_canon r v = flipc (q_canon r k)) ∧
  ((q_canon r k).2, (q_canon r k).1) ∈ q_aliases r k.
Proof.
  intros (C1 & C2 & C3). unfold q_canon, q_aliases. split; [|split].
  - apply C2.
  - intros Hv. rewrite <- (tog_tog v), C3. f_equal. by apply C2.
  - apply C1.
Qed.

Theorem canonical_consistent P k v : legalR P empty_rel →
  let r := runR P empty_rel in
  (v ∈ q_aliases r k → q_canon r v = q_canon r k) ∧
  (tog v ∈ q_aliases r k → q_canon r v = flipc (q_canon r k)) ∧
  ((q_canon r k).2, (q_canon r k).1) ∈ q_aliases r k.
Proof. intros Hl. apply canon_ok_queries, (runR_ok P empty_rel al_ok_empty canon_ok_empty Hl). Qed.

Theorem aliases_closure_rel P k v : legalR P empty_rel →
  v ∈ q_aliases (runR P empty_rel) k ↔ eqv (dbl P) k v.
Proof.
  intros Hl. unfold q_aliases. rewrite <- run_closure.
  by rewrite (runR_merges P empty_rel ∅ (fun _ => eq_refl) al_ok_empty Hl).
Qed.
