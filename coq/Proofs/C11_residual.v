(* C11 — proofs over Model/C11_residual.v: the encoding of Modelica values in CasADi numbers, the
   operator table, soundness and totality of tr / tr_eqn, and the loop ranges *)
From Coq Require Import ZArith QArith Qcanon List Bool Lia.
From PV Require Import Model.C11_residual.
Import ListNotations.
Open Scope Qc_scope.

Lemma ok_inv {A C} (x : res A) (k : A -> res C) c :
  match x with Ok a => k a | Err w => Err w end = Ok c -> exists a, x = Ok a /\ k a = Ok c.
Proof. destruct x as [a |]; intro H; [exists a; split; [reflexivity | exact H] | discriminate H]. Qed.
Lemma some_inv {A C} (x : option A) (k : A -> option C) c :
  match x with Some a => k a | None => None end = Some c -> exists a, x = Some a /\ k a = Some c.
Proof. destruct x as [a |]; intro H; [exists a; split; [reflexivity | exact H] | discriminate H]. Qed.

Lemma res_list_Forall2 {A B} (f : A -> res B) (g : list A -> res (list B)) :
  g [] = Ok [] ->
  (forall x r, g (x :: r) = match f x, g r with Ok c, Ok cs => Ok (c :: cs) | Err w, _ => Err w | _, Err w => Err w end) ->
  forall l cl, g l = Ok cl -> Forall2 (fun a c => f a = Ok c) l cl.
Proof.
  intros G0 GS. induction l as [| x r IH]; intros cl H.
  - rewrite G0 in H. injection H as <-. constructor.
  - rewrite GS in H. apply ok_inv in H as (c & Ex & H). apply ok_inv in H as (cr & Er & H). injection H as <-.
    constructor; [exact Ex | exact (IH cr Er)].
Qed.

Lemma qeqb_true a b : qeqb a b = true <-> a = b.
Proof.
  unfold qeqb. rewrite Qceq_alt. destruct (a ?= b); split; intro H; try reflexivity; discriminate H.
Qed.
Lemma qeqb_false a b : qeqb a b = false <-> a <> b.
Proof. rewrite <- qeqb_true. destruct (qeqb a b); intuition congruence. Qed.
Lemma Qc_0_le_1 : 0 <= 1.
Proof. unfold Qcle. simpl. unfold Qle. simpl. lia. Qed.

(* numbers: equal; Booleans: the CasADi number is >= 0 and non-zero exactly when true *)
Definition enc_rel (v : value) (w : Qc) : Prop :=
  match v with
  | VNum q => w = q
  | VBool b => 0 <= w /\ (w <> 0 <-> b = true)
  end.

Lemma enc_b2q b : enc_rel (VBool b) (b2q b).
Proof.
  destruct b; simpl; split.
  - exact Qc_0_le_1.
  - split; intro; [reflexivity | exact Q_apart_0_1].
  - apply Qcle_refl.
  - split; intro H; [exfalso; apply H; reflexivity | discriminate H].
Qed.

(* CasADi's truth test (if_else) of an encoded Boolean *)
Lemma enc_test b x : enc_rel (VBool b) x -> qeqb x 0 = negb b.
Proof.
  intros [_ H]. destruct b; simpl.
  - apply qeqb_false, H. reflexivity.
  - apply qeqb_true. destruct (Qc_eq_dec x 0) as [E | N]; [exact E |]. apply H in N. discriminate N.
Qed.

Lemma enc_and a b x y :
  enc_rel (VBool a) x -> enc_rel (VBool b) y -> enc_rel (VBool (a && b)) (x * y).
Proof.
  simpl. intros [Hx Ha] [Hy Hb]. split.
  - pose proof (Qcmult_le_compat_r 0 x y Hx Hy) as H. rewrite Qcmult_0_l in H. exact H.
  - split; intro H.
    + apply andb_true_intro. split.
      * apply Ha. intro E. apply H. rewrite E. apply Qcmult_0_l.
      * apply Hb. intro E. apply H. rewrite E. apply Qcmult_0_r.
    + apply andb_prop in H. destruct H as [H1 H2]. intro E.
      apply Qcmult_integral in E. destruct E as [E | E].
      * apply Ha in H1. contradiction.
      * apply Hb in H2. contradiction.
Qed.

Lemma nonneg_sum_zero x y : 0 <= x -> 0 <= y -> x + y = 0 -> x = 0 /\ y = 0.
Proof.
  intros Hx Hy E. split.
  - apply Qcle_antisym; [| exact Hx].
    pose proof (Qcplus_le_compat x x 0 y (Qcle_refl x) Hy) as H.
    rewrite Qcplus_0_r, E in H. exact H.
  - apply Qcle_antisym; [| exact Hy].
    pose proof (Qcplus_le_compat 0 x y y Hx (Qcle_refl y)) as H.
    rewrite Qcplus_0_l, E in H. exact H.
Qed.

Lemma enc_or a b x y :
  enc_rel (VBool a) x -> enc_rel (VBool b) y -> enc_rel (VBool (a || b)) (x + y).
Proof.
  simpl. intros [Hx Ha] [Hy Hb]. split.
  - pose proof (Qcplus_le_compat 0 x 0 y Hx Hy) as H. rewrite Qcplus_0_l in H. exact H.
  - split; intro H.
    + destruct a; [reflexivity |]. destruct b; [reflexivity |]. exfalso. apply H.
      rewrite (proj1 (qeqb_true x 0) (enc_test false x (conj Hx Ha))).
      rewrite (proj1 (qeqb_true y 0) (enc_test false y (conj Hy Hb))). apply Qcplus_0_l.
    + intro E. destruct (nonneg_sum_zero x y Hx Hy E) as [Ex Ey].
      apply orb_prop in H. destruct H as [H | H].
      * apply Ha in H. contradiction.
      * apply Hb in H. contradiction.
Qed.

Lemma meth_eqb_eq a b : meth_eqb a b = true -> a = b.
Proof. destruct a, b; (discriminate || reflexivity). Qed.

Lemma row_ok_lookup T k : row_ok T k = true -> lookup T k = Some (expected k, true).
Proof.
  unfold row_ok. destruct (lookup T k) as [[m ex] |]; [| intro H; discriminate H].
  intro H. apply andb_prop in H. destruct H as [H1 ->]. apply meth_eqb_eq in H1. rewrite H1. reflexivity.
Qed.
Lemma table_ok_lookup T : table_ok T = true -> forall k, k <> K_ne -> lookup T k = Some (expected k, true).
Proof.
  unfold table_ok. intros H k Hk. apply andb_prop in H. destruct H as [H _]. apply row_ok_lookup.
  (* the conjunction over the fifteen core keys, one hypothesis per key *)
  cbn [forallb core_keys] in H. repeat (apply andb_prop in H; destruct H as [? H]).
  destruct k; (assumption || contradiction).
Qed.
Lemma table_ok_ne T m : table_ok T = true -> lookup T K_ne = Some (m, true) -> m = M_ne.
Proof.
  unfold table_ok. intros H E. apply andb_prop in H. destruct H as [_ H]. unfold ne_row_sound in H.
  rewrite E in H. simpl in H. apply meth_eqb_eq in H. exact H.
Qed.

Lemma table_ok_total T : table_ok T = true -> ne_ok T = true -> table_total T = true.
Proof.
  intros H N. unfold table_total. apply forallb_forall. intros k _.
  destruct k; try (rewrite (table_ok_lookup T H) by discriminate; reflexivity).
  rewrite (row_ok_lookup T K_ne N). reflexivity.
Qed.

Section ExprInd.
Variable P : expr -> Prop.
Hypothesis Hnum : forall q, P (ENum q).
Hypothesis Hbool : forall b, P (EBool b).
Hypothesis Href : forall r, P (ERef r).
Hypothesis Hun : forall o a, P a -> P (EUn o a).
Hypothesis Hbin : forall o a b, P a -> P b -> P (EBin o a b).
Hypothesis Hif0 : forall els, P els -> P (EIf [] els).
Hypothesis HifS : forall c a brs els, P c -> P a -> P (EIf brs els) -> P (EIf ((c, a) :: brs) els).
Hypothesis Hfun : forall f a, P a -> P (EFun f a).

Fixpoint expr_ind' (e : expr) : P e :=
  match e with
  | ENum q => Hnum q
  | EBool b => Hbool b
  | ERef r => Href r
  | EUn o a => Hun o a (expr_ind' a)
  | EBin o a b => Hbin o a b (expr_ind' a) (expr_ind' b)
  | EIf brs els =>
      (fix go (l : list (expr * expr)) : P (EIf l els) :=
         match l with
         | [] => Hif0 els (expr_ind' els)
         | (c, a) :: r => HifS c a r els (expr_ind' c) (expr_ind' a) (go r)
         end) brs
  | EFun f a => Hfun f a (expr_ind' a)
  end.
End ExprInd.

Lemma m_eval_if_cons F c a brs els rho :
  m_eval F (EIf ((c, a) :: brs) els) rho =
  match m_eval F c rho with
  | Some (VBool true) => m_eval F a rho
  | Some (VBool false) => m_eval F (EIf brs els) rho
  | _ => None
  end.
Proof. reflexivity. Qed.
Lemma ne_free_if_cons c a brs els :
  ne_free (EIf ((c, a) :: brs) els) = ne_free c && ne_free a && ne_free (EIf brs els).
Proof. reflexivity. Qed.
(* the generated if_else chain has the first condition outermost *)
Lemma tr_if_cons T c a brs els cc ca rest :
  tr T c = Ok cc -> tr T a = Ok ca -> tr T (EIf brs els) = Ok rest ->
  tr T (EIf ((c, a) :: brs) els) = Ok (CIfElse cc ca rest).
Proof. cbn [tr]. intros -> ->. destruct (tr T els); [intros ->; reflexivity | intro H; discriminate H]. Qed.
Lemma tr_if_cons_inv T c a brs els x :
  tr T (EIf ((c, a) :: brs) els) = Ok x ->
  exists cc ca rest, tr T c = Ok cc /\ tr T a = Ok ca /\ tr T (EIf brs els) = Ok rest /\ x = CIfElse cc ca rest.
Proof.
  cbn [tr]. destruct (tr T els); [| intro H; discriminate H].
  destruct (tr T c) as [cc |]; [| intro H; discriminate H].
  destruct (tr T a) as [ca |]; destruct ((fix go (l : list (expr * expr)) : res caexpr := _) brs) as [rest |];
    intro H; try discriminate H.
  injection H as <-. exists cc, ca, rest. repeat split.
Qed.

(* the CasADi evaluation point encodes the Modelica one: Real variables by their value,
   Boolean variables by 0/1, derivatives as independent inputs, arrays shifted to 0-based *)
Definition env_rel (rm : menv) (rc : cenv) : Prop :=
  (forall x, match m_sc rm x with VNum q => c_sc rc x = q | VBool b => c_sc rc x = b2q b end) /\
  (forall x, c_der rc x = m_der rm x) /\
  (forall x k, c_arr rc x (k - 1) = m_arr rm x k) /\
  c_i rc = m_i rm.

Lemma env_rel_loop rm rc i : env_rel rm rc -> env_rel (with_mi rm i) (with_ci rc i).
Proof. intros (H1 & H2 & H3 & H4). repeat split; simpl; auto. Qed.

(* np.arange up to and including the last value not beyond hi in the direction of the step:
   floor((hi - start) / st) + 1 values, none when that is not positive *)
Lemma arange_incl start st hi : st <> 0%Z ->
  arange start (hi + (if (0 <? st)%Z then 1 else -1)) st =
  map (fun k => (start + Z.of_nat k * st)%Z) (seq 0 (Z.to_nat ((hi - start) / st + 1))).
Proof.
  intro Hst. unfold arange. destruct (0 <? st)%Z eqn:Hp.
  - apply Z.ltb_lt in Hp.
    replace (hi + 1 - start + st - 1)%Z with ((hi - start) + 1 * st)%Z by ring.
    rewrite Z.div_add by exact Hst. reflexivity.
  - apply Z.ltb_ge in Hp. assert ((st <? 0)%Z = true) as -> by (apply Z.ltb_lt; lia).
    replace (start - (hi + -1) + - st - 1)%Z with (- (hi - start) + 1 * (- st))%Z by ring.
    rewrite Z.div_add, Z.div_opp_opp by lia. reflexivity.
Qed.

Lemma range_values_modelica lo st hi : st <> 0%Z -> range_values lo st hi = modelica_range lo st hi.
Proof.
  intro Hst. unfold range_values, modelica_range. rewrite (arange_incl lo st hi Hst).
  destruct ((0 <? st)%Z && (hi <? lo)%Z || (st <? 0)%Z && (lo <? hi)%Z) eqn:E; [| reflexivity].
  (* an empty Modelica range: the quotient is negative *)
  assert ((hi - lo) / st < 0)%Z as N.
  { apply orb_prop in E. destruct E as [E | E]; apply andb_prop in E; destruct E as [E1 E2];
      apply Z.ltb_lt in E1, E2.
    - apply Z.div_lt_upper_bound; lia.
    - rewrite <- Z.div_opp_opp by exact Hst. apply Z.div_lt_upper_bound; lia. }
  replace (Z.to_nat ((hi - lo) / st + 1)) with 0%nat by lia. reflexivity.
Qed.

Lemma or_andb (P : Prop) a b : P \/ a && b = true -> (P \/ a = true) /\ (P \/ b = true).
Proof. rewrite andb_true_iff. tauto. Qed.

Section Sound.
Variable F : positive -> Qc -> Qc.
Variable T : table.
Hypothesis HT : table_ok T = true.

Lemma ref_sound rm rc r : env_rel rm rc -> enc_rel (m_ref r rm) (c_sym (tr_ref r) rc).
Proof.
  intros (H1 & H2 & H3 & H4). destruct r; simpl.
  - specialize (H1 x). destruct (m_sc rm x); [exact H1 | rewrite H1; apply enc_b2q].
  - apply H2.
  - apply H3.
  - rewrite H4. apply H3.
  - rewrite H4. reflexivity.
  - rewrite H4. apply H3.
Qed.

(* the node an operator becomes under a good table: `and` is a product, `or` a sum *)
Definition node_of (o : binop) : canode :=
  match o with
  | BAdd | BOr => CAdd | BSub => CSub | BMul | BEMul | BAnd => CMul | BDiv => CDiv | BPow => CPow
  | BGt => CGt | BLt => CLt | BLe => CLe | BGe => CGe | BNe => CNe | BEq => CEq
  | BMin => CFmin | BMax => CFmax
  end.

Lemma tr_bin_total o a b : (ne_ok T = true \/ o <> BNe) -> tr_bin T o a b = Ok (CBin (node_of o) a b).
Proof.
  intro N. unfold tr_bin.
  destruct o; try reflexivity; try (rewrite (table_ok_lookup T HT) by discriminate; reflexivity).
  destruct N as [N | N]; [| contradiction]. cbn [key_of]. rewrite (row_ok_lookup T K_ne N). reflexivity.
Qed.
(* when "<>" has a usable row at all, table_ok makes it the right one *)
Lemma tr_bin_node o a b c : tr_bin T o a b = Ok c -> c = CBin (node_of o) a b.
Proof.
  intro H. destruct o; try (rewrite tr_bin_total in H by (right; discriminate); injection H as <-; reflexivity).
  unfold tr_bin in H. cbn [key_of] in H.
  destruct (lookup T K_ne) as [[m [|]] |] eqn:E; try discriminate H.
  rewrite (table_ok_ne T m HT E) in H. injection H as <-. reflexivity.
Qed.
Lemma tr_un_total o a : exists c, tr_un T o a = Ok c.
Proof.
  unfold tr_un. destruct o; try (eexists; reflexivity).
  rewrite (table_ok_lookup T HT) by discriminate. eexists; reflexivity.
Qed.

Lemma tr_total e : (ne_ok T = true \/ ne_free e = true) -> exists c, tr T e = Ok c.
Proof.
  induction e using expr_ind'; intro N.
  - eexists; reflexivity.
  - eexists; reflexivity.
  - eexists; reflexivity.
  - cbn [tr]. destruct (IHe N) as [c ->]. apply tr_un_total.
  - assert (ne_ok T = true \/ o <> BNe) as No.
    { destruct N as [N | N]; [left; exact N | right; intros ->; discriminate N]. }
    assert (ne_ok T = true \/ ne_free e1 && ne_free e2 = true) as N'.
    { destruct N as [N | N]; [left; exact N | right; destruct o; (exact N || discriminate N)]. }
    apply or_andb in N'. destruct N' as [N1 N2].
    cbn [tr]. destruct (IHe1 N1) as [c1 ->]. destruct (IHe2 N2) as [c2 ->].
    eexists. apply tr_bin_total. exact No.
  - cbn [tr]. destruct (IHe N) as [c ->]. eexists; reflexivity.
  - rewrite ne_free_if_cons in N. apply or_andb in N. destruct N as [N N3].
    apply or_andb in N. destruct N as [N1 N2].
    destruct (IHe1 N1) as [cc Ec]. destruct (IHe2 N2) as [ca Ea]. destruct (IHe3 N3) as [rest Er].
    eexists. exact (tr_if_cons T _ _ _ _ _ _ _ Ec Ea Er).
  - cbn [tr]. destruct (IHe N) as [c ->]. eexists; reflexivity.
Qed.

(* the node's CasADi semantics encodes the operator's Modelica semantics: numbers by themselves,
   relations by 0/1, `/` and `^` defined on the same arguments *)
Lemma bin_enc o v w r x y :
  m_bin o v w = Some r -> enc_rel v x -> enc_rel w y ->
  exists z, ca_bin (node_of o) x y = Some z /\ enc_rel r z.
Proof.
  intros Hm Hx Hy.
  destruct v as [a | a], w as [b | b]; destruct o; try discriminate Hm;
    cbn [m_bin] in Hm; cbn [enc_rel] in Hx, Hy; try subst x; try subst y; cbn [node_of ca_bin].
  all: try (injection Hm as <-; eexists; split; [reflexivity | (reflexivity || apply enc_b2q)]).
  - destruct (qdiv a b); [| discriminate Hm]. injection Hm as <-. eexists; split; reflexivity.
  - destruct (qpow a b); [| discriminate Hm]. injection Hm as <-. eexists; split; reflexivity.
  - injection Hm as <-. eexists; split; [reflexivity | apply enc_and; assumption].
  - injection Hm as <-. eexists; split; [reflexivity | apply enc_or; assumption].
Qed.

Lemma un_sound o v r x c ca rc :
  m_un o v = Some r -> enc_rel v x -> ca_eval F ca rc = Some x -> tr_un T o ca = Ok c ->
  exists z, ca_eval F c rc = Some z /\ enc_rel r z.
Proof.
  intros Hm Hx Ea Htr. destruct o; cbn [tr_un] in Htr.
  - injection Htr as <-. destruct v as [a | a]; [| discriminate Hm]. injection Hm as <-.
    cbn [enc_rel] in Hx. subst x. cbn [ca_eval]. rewrite Ea. eexists; split; reflexivity.
  - injection Htr as <-. destruct v as [a | a]; [| discriminate Hm]. injection Hm as <-.
    exists x. split; [exact Ea | exact Hx].
  - (* not x = if_else(x, 0, 1) *)
    injection Htr as <-. destruct v as [a | a]; [discriminate Hm |]. injection Hm as <-.
    cbn [ca_eval]. rewrite Ea, (enc_test a x Hx). exists (b2q (negb a)). split; [destruct a; reflexivity | apply enc_b2q].
  - rewrite (table_ok_lookup T HT) in Htr by discriminate. injection Htr as <-.
    destruct v as [a | a]; [| discriminate Hm]. injection Hm as <-.
    cbn [enc_rel] in Hx. subst x. cbn [ca_eval]. rewrite Ea. eexists; split; reflexivity.
Qed.

(* the soundness half of C11_expr *)
Lemma expr_sound rm rc (HE : env_rel rm rc) e :
  forall c, tr T e = Ok c ->
  forall v, m_eval F e rm = Some v -> exists w, ca_eval F c rc = Some w /\ enc_rel v w.
Proof.
  induction e using expr_ind'; intros c Htr v Hm.
  - injection Htr as <-. injection Hm as <-. eexists; split; reflexivity.
  - injection Htr as <-. injection Hm as <-. eexists; split; [reflexivity | apply enc_b2q].
  - injection Htr as <-. injection Hm as <-. eexists; split; [reflexivity | apply ref_sound; exact HE].
  - cbn [tr m_eval] in Htr, Hm.
    apply ok_inv in Htr as (ca & Ea & Htr).
    apply some_inv in Hm as (va & Ma & Hm).
    destruct (IHe ca Ea va Ma) as (x & Ex & Rx).
    eapply un_sound; eassumption.
  - cbn [tr m_eval] in Htr, Hm.
    apply ok_inv in Htr as (ca & Ea & Htr).
    apply ok_inv in Htr as (cb & Eb & Htr).
    apply some_inv in Hm as (va & Ma & Hm).
    apply some_inv in Hm as (vb & Mb & Hm).
    destruct (IHe1 ca Ea va Ma) as (x & Ex & Rx).
    destruct (IHe2 cb Eb vb Mb) as (y & Ey & Ry).
    rewrite (tr_bin_node o ca cb c Htr). cbn [ca_eval]. rewrite Ex, Ey.
    exact (bin_enc o va vb v x y Hm Rx Ry).
  - cbn [tr] in Htr. destruct (tr T e) as [cels |]; [| discriminate Htr]. injection Htr as <-.
    exact (IHe cels eq_refl v Hm).
  - apply tr_if_cons_inv in Htr. destruct Htr as (cc & ca & rest & Ec & Ea & Er & ->).
    rewrite m_eval_if_cons in Hm.
    destruct (m_eval F e1 rm) as [[q | b] |] eqn:Mc; try discriminate Hm.
    destruct (IHe1 cc Ec (VBool b) eq_refl) as (x & Ex & Rx).
    cbn [ca_eval]. rewrite Ex, (enc_test b x Rx).
    destruct b; [exact (IHe2 ca Ea v Hm) | exact (IHe3 rest Er v Hm)].
  - cbn [tr m_eval] in Htr, Hm.
    apply ok_inv in Htr as (ca & Ea & Htr). injection Htr as <-.
    destruct (m_eval F e rm) as [[q | b] |] eqn:Ma; try discriminate Hm. injection Hm as <-.
    destruct (IHe ca Ea (VNum q) eq_refl) as (x & Ex & ->).
    cbn [ca_eval]. rewrite Ex. eexists; split; reflexivity.
Qed.

Lemma seqn_sound rm rc (HE : env_rel rm rc) s c d :
  tr_seqn T s = Ok c -> m_res1 F s rm = Some d -> ca_eval F c rc = Some d.
Proof.
  unfold tr_seqn, m_res1. destruct s as [l r]. cbn [fst snd]. intros Htr Hm.
  apply ok_inv in Htr as (cl & El & Htr).
  apply ok_inv in Htr as (cr & Er & Htr). injection Htr as <-.
  destruct (m_eval F l rm) as [[a | a] |] eqn:Ml; try discriminate Hm.
  destruct (m_eval F r rm) as [[b | b] |] eqn:Mr; try discriminate Hm. injection Hm as <-.
  destruct (expr_sound rm rc HE l cl El _ Ml) as (x & Ex & ->).
  destruct (expr_sound rm rc HE r cr Er _ Mr) as (y & Ey & ->).
  cbn [ca_eval]. rewrite Ex, Ey. reflexivity.
Qed.

Definition seqn_ne_free (s : seqn) : bool := ne_free (fst s) && ne_free (snd s).
Lemma tr_seqn_total s : (ne_ok T = true \/ seqn_ne_free s = true) -> exists c, tr_seqn T s = Ok c.
Proof.
  intro N. apply or_andb in N. destruct N as [N1 N2]. unfold tr_seqn.
  destruct (tr_total (fst s) N1) as [l ->]. destruct (tr_total (snd s) N2) as [r ->].
  eexists; reflexivity.
Qed.
Lemma tr_seqns_total l : (ne_ok T = true \/ forallb seqn_ne_free l = true) -> exists cs, tr_seqns T l = Ok cs.
Proof.
  induction l as [| s r IH]; cbn [tr_seqns forallb]; intro N.
  - eexists; reflexivity.
  - apply or_andb in N. destruct N as [N1 N2].
    destruct (tr_seqn_total s N1) as [c ->]. destruct (IH N2) as [cs ->]. eexists; reflexivity.
Qed.

(* agreement of a CasADi residual entry with the Modelica one: wherever the Modelica
   residual is defined, the CasADi entry is that number *)
Definition agrees (m c : option Qc) : Prop := forall d, m = Some d -> c = Some d.

Lemma seqns_sound rm rc (HE : env_rel rm rc) l cs :
  tr_seqns T l = Ok cs ->
  Forall2 agrees (map (fun s => m_res1 F s rm) l) (ca_evals F cs rc).
Proof.
  intro H. apply (res_list_Forall2 (tr_seqn T) (tr_seqns T) eq_refl (fun _ _ => eq_refl)) in H.
  induction H as [| s c r cr Es _ IH]; constructor; [| exact IH].
  intros d Hd. eapply seqn_sound; eassumption.
Qed.

(* well-formed: if-equation blocks all have the length of the else block (Modelica requires it,
   exitIfEquation checks it) *)
Definition eqn_wf (q : eqn) : Prop :=
  match q with
  | QIf brs els => Forall (fun b => length (snd b) = length els) brs
  | QFor _ st _ _ => st <> 0%Z
  | QSimple _ => True
  end.
Definition eqn_ne_free (q : eqn) : bool :=
  match q with
  | QSimple s => seqn_ne_free s
  | QIf brs els => forallb (fun b => ne_free (fst b) && forallb seqn_ne_free (snd b)) brs && forallb seqn_ne_free els
  | QFor _ _ _ body => forallb seqn_ne_free body
  end.

Lemma tr_eqn_total q : eqn_wf q -> (ne_ok T = true \/ eqn_ne_free q = true) -> exists r, tr_eqn T q = Ok r.
Proof.
  destruct q as [s | brs els | lo st hi body]; cbn [tr_eqn eqn_wf eqn_ne_free]; intros W N.
  - destruct (tr_seqn_total s N) as [c ->]. eexists; reflexivity.
  - assert (forallb (fun b => Nat.eqb (length (snd b)) (length els)) brs = true) as ->.
    { apply forallb_forall. intros b Hb. rewrite Forall_forall in W. apply Nat.eqb_eq. apply W. exact Hb. }
    apply or_andb in N. destruct N as [Nbrs Nels].
    destruct (tr_seqns_total els Nels) as [cels ->].
    clear W. induction brs as [| [c blk] r IH]; cbn [forallb fst snd] in Nbrs.
    + eexists; reflexivity.
    + apply or_andb in Nbrs. destruct Nbrs as [N N3]. apply or_andb in N. destruct N as [N1 N2].
      destruct (tr_total c N1) as [cc ->]. destruct (tr_seqns_total blk N2) as [cb ->].
      destruct (IH N3) as [rest ->]. eexists; reflexivity.
  - apply Z.eqb_neq in W. rewrite W. destruct (tr_seqns_total body N) as [cb ->]. eexists; reflexivity.
Qed.

Lemma m_res_if_cons c blk brs els rm :
  m_res F (QIf ((c, blk) :: brs) els) rm =
  match m_eval F c rm with
  | Some (VBool true) => Some (map (fun s => m_res1 F s rm) blk)
  | Some (VBool false) => m_res F (QIf brs els) rm
  | _ => None
  end.
Proof. reflexivity. Qed.
Lemma tr_eqn_if_cons_inv c blk brs els r :
  tr_eqn T (QIf ((c, blk) :: brs) els) = Ok r ->
  exists cc cb rest, tr T c = Ok cc /\ tr_seqns T blk = Ok cb /\ tr_eqn T (QIf brs els) = Ok rest /\
                     r = RIfElse cc cb rest.
Proof.
  cbn [tr_eqn forallb]. destruct (Nat.eqb _ _); [| intro H; discriminate H]. cbn [andb].
  destruct (forallb _ brs); [| intro H; discriminate H].
  destruct (tr_seqns T els); [| intro H; discriminate H].
  destruct (tr T c) as [cc |]; [| intro H; discriminate H].
  destruct (tr_seqns T blk) as [cb |];
    destruct ((fix go (l : list (expr * list seqn)) : res cares := _) brs) as [rest |]; intro H; try discriminate H.
  injection H as <-. exists cc, cb, rest. repeat split.
Qed.

Lemma map_loop_sound rm rc (HE : env_rel rm rc) vals s c :
  tr_seqn T s = Ok c ->
  Forall2 agrees (map (fun i => m_res1 F s (with_mi rm i)) vals)
                 (map (fun i => ca_eval F c (with_ci rc i)) vals).
Proof.
  intro Es. induction vals as [| i vs IHv]; simpl; constructor; [| exact IHv].
  intros d Hd. eapply seqn_sound; [apply env_rel_loop; exact HE | exact Es | exact Hd].
Qed.

Lemma eqn_sound rm rc (HE : env_rel rm rc) q r ms :
  tr_eqn T q = Ok r -> m_res F q rm = Some ms ->
  exists cs, ca_res F r rc = Some cs /\ Forall2 agrees ms cs.
Proof.
  destruct q as [s | brs els | lo st hi body].
  - cbn [tr_eqn m_res]. intros Htr Hm.
    apply ok_inv in Htr as (c & Es & Htr). injection Htr as <-.
    injection Hm as <-. eexists; split; [reflexivity |].
    apply (seqns_sound rm rc HE [s] [c]). cbn [tr_seqns]. rewrite Es. reflexivity.
  - revert r ms. induction brs as [| [cnd blk] rest IH]; intros r ms Htr Hm.
    + cbn [tr_eqn forallb m_res] in Htr, Hm.
      apply ok_inv in Htr as (cels & Eels & Htr).
      injection Htr as <-. injection Hm as <-. eexists; split; [reflexivity |].
      apply seqns_sound; assumption.
    + apply tr_eqn_if_cons_inv in Htr. destruct Htr as (cc & cb & rr & Ec & Eb & Er & ->).
      rewrite m_res_if_cons in Hm.
      destruct (m_eval F cnd rm) as [[qv | b] |] eqn:Mc; try discriminate Hm.
      destruct (expr_sound rm rc HE cnd cc Ec _ Mc) as (x & Ex & Rx).
      cbn [ca_res]. rewrite Ex, (enc_test b x Rx). destruct b.
      * injection Hm as <-. eexists; split; [reflexivity |]. apply seqns_sound; assumption.
      * exact (IH rr ms Er Hm).
  - cbn [tr_eqn m_res]. intros Htr Hm.
    destruct (st =? 0)%Z eqn:Est; [discriminate Htr |]. apply Z.eqb_neq in Est.
    apply ok_inv in Htr as (cb & Eb & Htr). injection Htr as <-.
    injection Hm as <-. cbn [ca_res]. rewrite (range_values_modelica lo st hi Est). eexists; split; [reflexivity |].
    apply (res_list_Forall2 (tr_seqn T) (tr_seqns T) eq_refl (fun _ _ => eq_refl)) in Eb.
    induction Eb as [| s c rest cr Es _ IH]; [constructor |].
    cbn [flat_map]. apply Forall2_app; [| exact IH].
    apply map_loop_sound; assumption.
Qed.

End Sound.

Lemma nth_map_seq (f : nat -> Z) n k : (k < n)%nat -> nth k (map f (seq 0 n)) 0%Z = f k.
Proof.
  intro H. rewrite (nth_indep _ 0%Z (f 0%nat)) by (rewrite map_length, seq_length; exact H).
  rewrite (map_nth f (seq 0 n) 0%nat k), seq_nth by exact H. reflexivity.
Qed.
Lemma zrange_map lo n : zrange lo n = map (fun k => (lo + Z.of_nat k)%Z) (seq 0 n).
Proof.
  revert lo. induction n as [| n IH]; intro lo; [reflexivity |].
  cbn [zrange seq map]. rewrite IH, <- seq_shift, map_map.
  f_equal; [lia | apply map_ext; intro k; lia].
Qed.
Lemma zrange_length lo n : length (zrange lo n) = n.
Proof. rewrite zrange_map, map_length. apply seq_length. Qed.
Lemma zrange_nth lo n k : (k < n)%nat -> nth k (zrange lo n) 0%Z = (lo + Z.of_nat k)%Z.
Proof. rewrite zrange_map. apply nth_map_seq. Qed.
(* concrete instances: positive step not dividing the span, negative step, empty *)
Lemma range_examples :
  range_values 1 2 6 = [1; 3; 5]%Z /\ range_values 5 (-2) 2 = [5; 3]%Z /\ range_values 1 (-1) 3 = [] /\
  range_values 3 1 2 = [].
Proof. vm_compute. repeat split; reflexivity. Qed.

(* the tables of the repaired tree and of two earlier ones *)
Definition prefix_table : table :=
  [(K_mul, (M_mul, true)); (K_add, (M_add, true)); (K_sub, (M_sub, true)); (K_div, (M_div, false));
   (K_pow, (M_pow, true)); (K_gt, (M_gt, true)); (K_lt, (M_lt, true)); (K_le, (M_le, true));
   (K_ge, (M_ge, true)); (K_eq, (M_eq, true)); (K_min, (M_fmin, true));
   (K_max, (M_fmax, true)); (K_abs, (M_fabs, true)); (K_and, (M_mul, true)); (K_or, (M_add, true))].
Definition good_table : table :=
  [(K_mul, (M_mul, true)); (K_add, (M_add, true)); (K_sub, (M_sub, true)); (K_div, (M_truediv, true));
   (K_pow, (M_pow, true)); (K_gt, (M_gt, true)); (K_lt, (M_lt, true)); (K_le, (M_le, true));
   (K_ge, (M_ge, true)); (K_ne, (M_ne, true)); (K_eq, (M_eq, true)); (K_min, (M_fmin, true));
   (K_max, (M_fmax, true)); (K_abs, (M_fabs, true)); (K_and, (M_mul, true)); (K_or, (M_add, true))].
(* OP_MAP before e57542a: no "<>" row *)
Definition pre_ne_table : table :=
  [(K_mul, (M_mul, true)); (K_add, (M_add, true)); (K_sub, (M_sub, true)); (K_div, (M_truediv, true));
   (K_pow, (M_pow, true)); (K_gt, (M_gt, true)); (K_lt, (M_lt, true)); (K_le, (M_le, true));
   (K_ge, (M_ge, true)); (K_eq, (M_eq, true)); (K_min, (M_fmin, true));
   (K_max, (M_fmax, true)); (K_abs, (M_fabs, true)); (K_and, (M_mul, true)); (K_or, (M_add, true))].
Lemma good_table_ok : table_ok good_table = true.
Proof. vm_compute. reflexivity. Qed.
Lemma good_table_total : ne_ok good_table = true /\ table_total good_table = true.
Proof. vm_compute. split; reflexivity. Qed.
