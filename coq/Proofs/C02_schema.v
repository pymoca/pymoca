(* C02 — soundness of the layout-knowledge side condition sch_ok: no schema error, a good table is
   never dropped. *)
From Coq Require Import List Bool Arith Lia.
From PV Require Import Lib.Lock Model.C02_conc Proofs.C02_exec Proofs.C02_conc Proofs.C02_live.
Import ListNotations.

(* what a call sees: its private view inside a write transaction, else the committed content *)
Definition xvis (t : thr) (d : db) : db := match t_view t with Some v => v | None => d end.

Definition vk_sem (m : mode) (T : tbl) (v : vk) (x : db) : Prop :=
  match v with
  | VU => True
  | VG => tget T x = TGood
  | VB => m = MW /\ tget T x <> TGood
  | VM => m = MW /\ tget T x = TMissing
  end.

Definition rk_sem (m : mode) (k : rk) (b : bool) (x : db) : Prop :=
  match k with
  | RTop => True
  | RConst b' => b = b'
  | RInfoOf T mw => (b = true -> tget T x = TGood) /\ (mw = true -> m = MW /\ (b = false -> tget T x <> TGood))
  | RMasterOf T mw => mw = true -> m = MW /\ (b = false -> tget T x = TMissing)
  end.

Definition G (m : mode) (x : db) (regs : list (nat * bool)) (vm vx : vk) (R : list (nat * rk)) : Prop :=
  vk_sem m TModels vm x /\ vk_sem m TMeta vx x /\ forall r, rk_sem m (lookup_rk R r) (reg regs r) x.

Definition Gs (m : mode) (x : db) (regs : list (nat * bool)) (s : ast) : Prop :=
  a_mode s = m /\ G m x regs (a_vm s) (a_vx s) (a_regs s).

Definition data (s : stmt) (par : params) (x x' : db) : Prop :=
  match s with SWrite w => apply_wr par w x = inl x' | _ => x' = x end.

(* the facts "not good" / "missing" are claimed in mode MW only: hence the hypotheses on MW *)
Lemma vk_move m m' T v x x' :
  (m = m' \/ m <> MW) -> (m' = MW -> tget T x' = tget T x) -> (tget T x = TGood -> tget T x' = TGood) ->
  vk_sem m T v x -> vk_sem m' T v x'.
Proof.
  intros Hm E Mo S. destruct v; cbn in *; auto; destruct S as (M & S);
    (assert (M' : m' = MW) by (destruct Hm; congruence)); (split; [exact M'|]); rewrite (E M'); exact S.
Qed.

Lemma rk_move m m' k b x x' :
  (m = m' \/ m <> MW) -> (m' = MW -> forall T, tget T x' = tget T x) ->
  (forall T, tget T x = TGood -> tget T x' = TGood) -> rk_sem m k b x -> rk_sem m' k b x'.
Proof.
  intros Hm E Mo S.
  assert (W : m = MW -> m' = MW) by (destruct Hm; congruence).
  destruct k as [|b'|T mw|T mw]; cbn in *; auto.
  - destruct S as (A & B). split; [auto|]. intros Q. destruct (B Q) as (M & N).
    split; [auto|]. rewrite (E (W M)). exact N.
  - intros Q. destruct (S Q) as (M & N). split; [auto|]. rewrite (E (W M)). exact N.
Qed.

Lemma G_move m m' x x' regs vm vx R :
  (m = m' \/ m <> MW) -> (m' = MW -> forall T, tget T x' = tget T x) ->
  (forall T, tget T x = TGood -> tget T x' = TGood) -> G m x regs vm vx R -> G m' x' regs vm vx R.
Proof.
  intros Hm E Mo (A & B & C).
  split; [|split]; [apply (vk_move m _ _ _ x); auto..|intros r; apply (rk_move m _ _ _ x); auto].
Qed.

Lemma G_setreg m x regs vm vx R r b k :
  G m x regs vm vx R -> rk_sem m k b x -> G m x ((r, b) :: regs) vm vx ((r, k) :: R).
Proof.
  intros (A & B & C) K. repeat split; auto. intros r0. cbn [lookup_rk reg].
  destruct (Nat.eqb r0 r); auto.
Qed.

Lemma lookup_map (f : rk -> rk) R r :
  f RTop = RTop -> lookup_rk (map (fun e => (fst e, f (snd e))) R) r = f (lookup_rk R r).
Proof.
  intros H. induction R as [|[r' k] R IH]; cbn; auto. destruct (Nat.eqb r r'); auto.
Qed.

Definition inval_f (T : tbl) (k : rk) : rk :=
  match k with
  | RInfoOf T' _ | RMasterOf T' _ => if tbl_eqb T T' then RTop else k
  | k => k
  end.
Definition end_f (k : rk) : rk :=
  match k with RInfoOf T _ => RInfoOf T false | RMasterOf _ _ => RTop | k => k end.

Lemma a_regs_inval T s : a_regs (inval T s) = map (fun e => (fst e, inval_f T (snd e))) (a_regs s).
Proof. unfold inval; cbn [a_regs]. apply map_ext. intros [r k]; cbn. destruct k; reflexivity. Qed.
Lemma a_regs_txn_end s : a_regs (txn_end s) = map (fun e => (fst e, end_f (snd e))) (a_regs s).
Proof. unfold txn_end; cbn [a_regs]. apply map_ext. intros [r k]; cbn. destruct k; reflexivity. Qed.

Lemma tbl_eqb_eq a b : tbl_eqb a b = true <-> a = b.
Proof. destruct a, b; cbn; split; congruence. Qed.

Lemma rk_inval m T k b x x' :
  (forall T', T' <> T -> tget T' x' = tget T' x) -> rk_sem m k b x -> rk_sem m (inval_f T k) b x'.
Proof.
  intros E S. destruct k as [|b'|T' mw|T' mw]; cbn; auto.
  all: destruct (tbl_eqb T T') eqn:Q; cbn; auto;
    assert (T' <> T) by (intros ->; destruct T; discriminate); rewrite E; auto.
Qed.

Lemma rk_end k b x : rk_sem MW k b x -> rk_sem MN (end_f k) b x.
Proof.
  destruct k as [|b'|T mw|T mw]; cbn; auto. intros (A & _). split; auto. intros; discriminate.
Qed.

Lemma vk_end T v x : vk_sem MW T v x -> vk_sem MN T (end_vk v) x.
Proof. destruct v; cbn; auto. Qed.

Lemma mode_eqb_true a b : mode_eqb a b = true -> a = b.
Proof. exact (mode_eqb_eq a b). Qed.

Lemma trm_keeps s a : check s a = true -> s <> SCommit -> (outside_tx a = true \/ (s <> SConnect /\ s <> SClose)) ->
  a = trm s a \/ a <> MW.
Proof.
  intros C N O. destruct a; try (right; discriminate). left.
  destruct s as [|h| |imm|rd dst|w| | |r b]; cbn in C; try discriminate C; try reflexivity.
  - destruct O as [O|(O & _)]; [discriminate O|contradiction].
  - contradiction.
  - destruct O as [O|(_ & O)]; [discriminate O|contradiction].
Qed.

(* what the typing has established when it lets a write pass *)
Lemma vk_getv m x regs st T : G m x regs (a_vm st) (a_vx st) (a_regs st) -> vk_sem m T (getv T st) x.
Proof. intros (A & B & _). destruct T; assumption. Qed.

Definition wr_pre (a : mode) (w : wr) (x : db) : Prop :=
  match w with
  | WDrop T => a = MW /\ tget T x <> TGood
  | WCreate T => a = MW /\ tget T x = TMissing
  | WMetaKeys | WTouchMeta => tget TMeta x = TGood
  | WPrune | WTouchRow => tget TModels x = TGood
  | WInsert rep => tget TModels x = TGood /\ rep = true
  end.

Lemma trs_write a x regs w st s' : Gs a x regs st -> trs (SWrite w) st = Some s' -> wr_pre a w x.
Proof.
  intros (Ha & HG) H.
  assert (Vg : forall T, is_vg (getv T st) = true -> tget T x = TGood).
  { intros T V. pose proof (vk_getv a x regs st T HG) as S. destruct (getv T st); try discriminate V. exact S. }
  destruct w as [T|T| | | | |rep]; unfold trs in H; rewrite Ha in H;
    (destruct (check _ a) eqn:C; cbn [negb] in H; [|discriminate H]); cbn [wr_pre].
  3, 4, 5, 6: apply Vg; cbn [getv]; destruct (is_vg _); [reflexivity|discriminate].
  - destruct (is_mw a && is_bad (getv T st)) eqn:V; [|discriminate H]. apply andb_true_iff in V. destruct V as (W & V).
    pose proof (vk_getv a x regs st T HG) as S. destruct (getv T st); try discriminate V; destruct S as (S1 & S2); split; congruence.
  - destruct (is_mw a && is_vm (getv T st)) eqn:V; [|discriminate H]. apply andb_true_iff in V. destruct V as (W & V).
    pose proof (vk_getv a x regs st T HG) as S. destruct (getv T st); try discriminate V. exact S.
  - split; [apply (Vg TModels); cbn [getv]; destruct (is_vg (a_vm st)); [reflexivity|discriminate]|].
    cbn in C. apply andb_true_iff in C. exact (proj2 C).
Qed.

Lemma trs_noerr a x regs s st s' par :
  Gs a x regs st -> trs s st = Some s' ->
  (forall rd dst, s = SRead rd dst -> exists b, read_val (p_text par) rd x = inl b) /\
  (forall w, s = SWrite w -> exists x', apply_wr par w x = inl x').
Proof.
  intros HG H. split.
  - intros rd dst ->. destruct rd as [T|T| |]; cbn; eauto.
    + destruct HG as (Ha & Gm & _). unfold trs in H. destruct (negb _); [discriminate|].
      destruct (a_vm st); try discriminate H. cbn in Gm. unfold tget in Gm. rewrite Gm. cbn. eauto.
    + unfold trs in H. destruct (negb _); discriminate.
  - intros w ->. pose proof (trs_write a x regs w st s' HG H) as P.
    destruct w as [[]|[]| | | | |rep]; cbn [apply_wr wr_pre tget] in P |- *.
    1, 2: eauto.
    1, 2: destruct P as (_ & ->); cbn; eauto.
    1, 2, 3, 4: rewrite P; cbn; eauto.
    destruct P as (-> & ->). cbn. destruct (has_row (p_text par) x); eauto.
Qed.

Lemma apply_wr_layout par w x x' :
  apply_wr par w x = inl x' ->
  forall T, tget T x' = match w with
                        | WDrop T0 => if tbl_eqb T T0 then TMissing else tget T x
                        | WCreate T0 => if tbl_eqb T T0 then TGood else tget T x
                        | _ => tget T x
                        end.
Proof.
  intros E T. destruct w as [[]|[]| | | | |rep]; cbn [apply_wr] in E;
    repeat match type of E with context [if ?c then _ else _] => destruct c end;
    try discriminate; inversion E; subst; destruct T; reflexivity.
Qed.

(* a well-typed write never turns a good table into something else *)
Lemma trs_mono a x regs w st s' par x' :
  Gs a x regs st -> trs (SWrite w) st = Some s' -> apply_wr par w x = inl x' ->
  forall T, tget T x = TGood -> tget T x' = TGood.
Proof.
  intros HG H E T HT. pose proof (trs_write a x regs w st s' HG H) as P.
  rewrite (apply_wr_layout par w x x' E T).
  destruct w as [T0|T0| | | | |rep]; try exact HT; destruct (tbl_eqb T T0) eqn:Q; auto.
  apply tbl_eqb_eq in Q. subst T0. destruct P as (_ & P). contradiction.
Qed.

Lemma is_mw_true a : is_mw a = true -> a = MW.
Proof. apply mode_eqb_true. Qed.

Lemma trs_check s st s' :
  trs s st = Some s' ->
  check s (a_mode st) = true /\ (outside_tx (a_mode st) = true \/ (s <> SConnect /\ s <> SClose)).
Proof.
  unfold trs. destruct (check s (a_mode st)); cbn [negb]; [|discriminate]. intros H. split; auto.
  destruct s; try (right; split; discriminate); destruct (outside_tx (a_mode st)); try discriminate; auto.
Qed.

Lemma Gs_inval T v x x' regs st :
  (forall T', T' <> T -> tget T' x' = tget T' x) -> vk_sem MW T v x' ->
  Gs MW x regs st -> Gs MW x' regs (inval T (setv T v st)).
Proof.
  intros N V (Ha & A & B & C).
  split; [destruct T; exact Ha|]. rewrite a_regs_inval.
  assert (Rg : forall r, rk_sem MW (lookup_rk (map (fun e => (fst e, inval_f T (snd e))) (a_regs (setv T v st))) r)
                                (reg regs r) x').
  { intros r. rewrite lookup_map by reflexivity. apply (rk_inval MW T _ _ x); auto. destruct T; apply C. }
  destruct T; cbn [inval setv a_vm a_vx a_regs] in *; (split; [|split]); auto;
    [apply (vk_move MW _ TMeta _ x)|apply (vk_move MW _ TModels _ x)]; auto; rewrite N; auto; discriminate.
Qed.

Lemma trs_sound a x regs s st s' par x' :
  Gs a x regs st -> trs s st = Some s' -> data s par x x' ->
  Gs (trm s a) x' (newregs s regs x par) s'.
Proof.
  destruct st as [am vm vx R]. intros HGs H D. pose proof HGs as (Ha & HG). cbn in Ha. subst am.
  cbn [a_vm a_vx a_regs] in HG. pose proof HG as (Gm & Gx & GR).
  destruct (trs_check _ _ _ H) as (C & O). cbn [a_mode] in C, O.
  (* no statement but COMMIT leaves the mode MW *)
  assert (K : s <> SCommit -> G (trm s a) x regs vm vx R).
  { intros N. apply (G_move a _ x); auto. apply trm_keeps; assumption. }
  pose proof H as H0.
  destruct s as [|h| |imm|rd dst|w| | |r b]; unfold trs in H; cbn [a_mode a_vm a_vx] in H; rewrite C in H;
    cbn [negb] in H; cbn [data newregs] in D |- *; try subst x'.
  - destruct (outside_tx a); inversion H; subst s'. split; [reflexivity|]. apply K. discriminate.
  - inversion H; subst s'. split; [reflexivity|]. apply K. discriminate.
  - discriminate.
  - inversion H; subst s'. split; [reflexivity|]. apply K. discriminate.
  - destruct rd as [T|T| |].
    + inversion H; subst s'. split; [reflexivity|]. cbn.
      apply G_setreg; [apply K; discriminate|].
      cbn. intros E. apply is_mw_true in E. subst a. split; [reflexivity|].
      intros B. destruct (tget T x); cbn in B; try discriminate; reflexivity.
    + inversion H; subst s'. split; [reflexivity|]. cbn.
      apply G_setreg; [apply K; discriminate|].
      cbn. split; [intros B; destruct (tget T x); cbn in B; try discriminate; reflexivity|].
      intros E. apply is_mw_true in E. subst a. split; [reflexivity|].
      intros B Q. rewrite Q in B. cbn in B. discriminate.
    + destruct vm; cbn [is_vg] in H; try discriminate. inversion H; subst s'. cbn in Gm.
      assert (Q : is_good (d_models x) = true) by (rewrite Gm; reflexivity).
      cbn [read_val]. rewrite Q. cbn [app]. split; [reflexivity|]. cbn [a_vm a_vx a_regs setreg setmode].
      apply G_setreg; [apply G_setreg|]; cbn; auto. apply K. discriminate.
    + discriminate.
  - pose proof (trs_write a x regs w _ s' HGs H0) as P.
    pose proof (apply_wr_layout par w x x' D) as Ly.
    destruct w as [T|T| | | | |rep]; cbn [wr_pre] in P.
    1: { destruct P as (-> & _). rewrite andb_true_l in H. destruct (is_bad _); inversion H; subst s'.
         apply (Gs_inval T VM x); auto; [intros T' N; rewrite Ly; destruct T', T; try reflexivity; contradiction|].
         split; [reflexivity|]. rewrite Ly. destruct T; reflexivity. }
    1: { destruct P as (-> & _). rewrite andb_true_l in H. destruct (is_vm _); inversion H; subst s'.
         apply (Gs_inval T VG x); auto; [intros T' N; rewrite Ly; destruct T', T; try reflexivity; contradiction|].
         cbn. rewrite Ly. destruct T; reflexivity. }
    all: destruct (is_vg _); inversion H; subst s'; (split; [reflexivity|]); cbn [a_vm a_vx a_regs setmode];
      eapply (G_move _ _ x); [left; reflexivity|intros _; exact Ly|intros T HT; rewrite Ly; exact HT|apply K; discriminate].
  - inversion H; subst s'. cbn [trm]. destruct (is_mw a) eqn:W.
    + apply is_mw_true in W. subst a. split; [reflexivity|].
      cbn [a_vm a_vx txn_end setmode]. rewrite a_regs_txn_end. cbn [a_regs setmode].
      split; [apply vk_end; auto|]. split; [apply vk_end; auto|].
      intros r. rewrite lookup_map by reflexivity. apply rk_end. apply GR.
    + split; [reflexivity|]. cbn [a_vm a_vx a_regs setmode]. apply (G_move a _ x); auto.
      right. intros ->. discriminate.
  - destruct (outside_tx a); inversion H; subst s'. split; [reflexivity|]. apply K. discriminate.
  - inversion H; subst s'. split; [reflexivity|]. cbn.
    apply G_setreg; [apply K; discriminate|reflexivity].
Qed.

Definition good2 (d : db) : Prop := tget TModels d = TGood /\ tget TMeta d = TGood.

Definition gam (d : db) (t : thr) (s : ast) : Prop :=
  has_mode t (a_mode s) /\ (t_view t = None <-> a_mode s <> MW) /\
  G (a_mode s) (xvis t d) (t_regs t) (a_vm s) (a_vx s) (a_regs s) /\
  (forall T, tget T d = TGood -> tget T (xvis t d) = TGood) /\
  (p_init (t_par t) = false -> good2 d).

Definition tinv2 (d : db) (t : thr) : Prop :=
  t_st t = Run -> t_ifail t = false /\ exists s n, gam d t s /\ tys_f n (t_k t) s = true.

Lemma gam_refine d t s s' :
  gam d t s -> a_mode s' = a_mode s ->
  G (a_mode s) (xvis t d) (t_regs t) (a_vm s') (a_vx s') (a_regs s') -> gam d t s'.
Proof. intros (A & B & C & D & E) M H. unfold gam. rewrite M. auto. Qed.

Lemma G_refine m x regs vm vx R r k :
  G m x regs vm vx R -> rk_sem m k (reg regs r) x -> G m x regs vm vx ((r, k) :: R).
Proof.
  intros (A & B & C) K. repeat split; auto. intros r0. cbn [lookup_rk].
  destruct (Nat.eqb r0 r) eqn:E; auto. apply Nat.eqb_eq in E. subst. exact K.
Qed.

Lemma G_setv m x regs vm vx R T v :
  G m x regs vm vx R -> vk_sem m T v x ->
  G m x regs (match T with TModels => v | TMeta => vm end) (match T with TModels => vx | TMeta => v end) R.
Proof. intros (A & B & C) K. destruct T; repeat split; auto. Qed.

Local Ltac prj := cbn [a_vm a_vx a_regs a_mode setv setreg setmode].

Lemma gam_reg d t s r b : gam d t s -> reg (t_regs t) r = b -> gam d t (setreg s r (RConst b)).
Proof.
  intros Hg Er. pose proof Hg as (_ & _ & C & _). apply (gam_refine d t s); auto.
  prj. apply G_refine; [exact C|exact Er].
Qed.

Lemma gam_branch d t s T v r b :
  gam d t s -> vk_sem (a_mode s) T v (xvis t d) -> reg (t_regs t) r = b ->
  gam d t (setreg (setv T v s) r (RConst b)).
Proof.
  intros Hg V Er. pose proof Hg as (_ & _ & C & _). apply (gam_refine d t s); [exact Hg|destruct T; reflexivity|].
  destruct T; prj; (apply G_refine; [|exact Er]);
    [apply (G_setv _ _ _ _ _ _ TModels v C)|apply (G_setv _ _ _ _ _ _ TMeta v C)]; exact V.
Qed.

Lemma advance_f_gam d m k t s n :
  t_st t = Run -> t_ifail t = false -> gam d t s -> tys_f n k s = true -> tinv2 d (advance_f m k t).
Proof.
  intros Hst Hif Hg Hty.
  apply (advance_f_ind (fun k t => t_st t = Run /\ t_ifail t = false /\
                                  exists s n, gam d t s /\ tys_f n k s = true)); [..|eauto 7]; clear.
  - intros t _ X. discriminate X.
  - intros k t (Hst & Hif & s & n & Hg & Hty) _. split; [exact Hif|]. exists s, n. split; [exact Hg|exact Hty].
  - intros r b k t (Hst & Hif & s & [|n] & Hg & Hty); [discriminate|]. cbn [tys_f] in Hty.
    destruct (trs (SSet r b) s) as [s'|] eqn:Et; [|discriminate].
    destruct Hg as (A & B & C & D & E).
    pose proof (trs_sound (a_mode s) (xvis t d) (t_regs t) (SSet r b) s s' (t_par t) (xvis t d)
                          (conj eq_refl C) Et eq_refl) as (M & G').
    cbn [trm newregs] in M, G'.
    split; [exact Hst|]. split; [exact Hif|]. exists s', n. split; [|exact Hty].
    unfold gam. rewrite M. split; [revert A; apply hm_eq; reflexivity|]. split; [exact B|]. split; [exact G'|].
    split; [exact D|exact E].
  - intros c th el k t (Hst & Hif & s & [|n] & Hg & Hty); [discriminate|]. cbn [tys_f] in Hty.
    split; [exact Hst|]. split; [exact Hif|].
    pose proof Hg as (A & B & C & D & E).
    destruct c as [r| | | |]; cbn [cond_val].
    + destruct (lookup_rk (a_regs s) r) as [|b'|T mw|T mw] eqn:L.
      * apply andb_true_iff in Hty. destruct Hty as (H1 & H2).
        destruct (reg (t_regs t) r); eauto.
      * destruct C as (_ & _ & CR). specialize (CR r). rewrite L in CR. cbn in CR. rewrite CR.
        destruct b'; eauto.
      * apply andb_true_iff in Hty. destruct Hty as (H1 & H2).
        pose proof C as (_ & _ & CR). specialize (CR r). rewrite L in CR. cbn in CR. destruct CR as (P & N).
        destruct (reg (t_regs t) r) eqn:Er.
        -- eexists _, n. split; [|exact H1]. apply gam_branch; auto. cbn. auto.
        -- eexists _, n. split; [|exact H2].
           destruct mw; [apply gam_branch|apply gam_reg]; auto. destruct (N eq_refl) as (N1 & N2). cbn. auto.
      * apply andb_true_iff in Hty. destruct Hty as (H1 & H2).
        pose proof C as (_ & _ & CR). specialize (CR r). rewrite L in CR. cbn in CR.
        destruct (reg (t_regs t) r) eqn:Er.
        -- eexists _, n. split; [|exact H1]. apply gam_reg; auto.
        -- eexists _, n. split; [|exact H2].
           destruct mw; [apply gam_branch|apply gam_reg]; auto. destruct (CR eq_refl) as (N1 & N2). cbn. auto.
    + apply andb_true_iff in Hty. destruct Hty as (H1 & H2).
      destruct (p_init (t_par t)) eqn:Ei; [eauto|].
      eexists _, n. split; [|exact H2].
      unfold assume_init. destruct (is_mw (a_mode s)) eqn:W; [exact Hg|].
      apply (gam_refine d t s); auto. cbn [a_vm a_vx a_regs].
      assert (V : t_view t = None) by (apply B; intros Q; rewrite Q in W; discriminate).
      destruct (E eq_refl) as (E1 & E2). destruct C as (_ & _ & CR).
      unfold xvis. rewrite V. repeat split; auto. intros r. specialize (CR r). unfold xvis in CR. rewrite V in CR. exact CR.
    + apply andb_true_iff in Hty. destruct Hty as (H1 & H2). destruct (p_upd (t_par t) || reg (t_regs t) r_stale); eauto.
    + apply andb_true_iff in Hty. destruct Hty as (H1 & H2). destruct (p_tree (t_par t)); eauto.
    + rewrite Hif. eauto.
Qed.

Definition writer (c : cfg) (tid : nat) (t : thr) : Prop :=
  geb (t_lvl t) Res = true \/ any_geb Res (others c tid 0) = false.

Lemma vis_xvis c d t x : c_store c = [Some d] -> vis c 0 t = Some x -> x = xvis t d.
Proof.
  intros Hs V. unfold vis, content in V. rewrite Hs in V. unfold xvis. cbn in V.
  destruct (t_view t); congruence.
Qed.

(* For each statement the proof names the committed content d' and the view v' afterwards (`Say`); what then
   remains is that the view is present exactly in mode MW - read off the mode a, which `check` restricts - and,
   where the committed content moved (autocommit write, COMMIT of a view), that the call was the writer. *)
Lemma ran_shape c tid d t s a l x x' :
  c_path c = Some 0 -> c_store c = [Some d] ->
  has_mode t a -> check s a = true -> (t_view t = None <-> a <> MW) ->
  (forall g, t_conn t = Some g -> g = 0) ->
  (outside_tx a = true \/ (s <> SConnect /\ s <> SClose)) ->
  ran_ok c tid t s l x x' ->
  let t' := ran_thr c t s l x x' in
  exists d', store_after c t s x' = [Some d'] /\ data s (t_par t) (xvis t d) (xvis t' d') /\
    t_regs t' = newregs s (t_regs t) (xvis t d) (t_par t) /\
    (t_view t' = None <-> trm s a <> MW) /\ (d' = d \/ d' = xvis t' d' /\ writer c tid t).
Proof.
  intros Hp Hs Hm Hck Hv Hg Hout (Gr & A) t'.
  assert (Hd : content c 0 = Some d) by (unfold content; rewrite Hs; reflexivity).
  assert (Say : forall d' v', store_after c t s x' = [Some d'] -> t_view t' = v' ->
            data s (t_par t) (xvis t d) (match v' with Some y => y | None => d' end) ->
            t_regs t' = newregs s (t_regs t) (xvis t d) (t_par t) -> (v' = None <-> trm s a <> MW) ->
            (d' = d \/ d' = (match v' with Some y => y | None => d' end) /\ writer c tid t) ->
            exists d', store_after c t s x' = [Some d'] /\ data s (t_par t) (xvis t d) (xvis t' d') /\
              t_regs t' = newregs s (t_regs t) (xvis t d) (t_par t) /\
              (t_view t' = None <-> trm s a <> MW) /\ (d' = d \/ d' = xvis t' d' /\ writer c tid t)).
  { intros d' v' F1 <- F2 F3 F4 F5. exists d'. auto 10. }
  assert (Vo : outside_tx a = true -> xvis t d = d).
  { intros X. unfold xvis. replace (t_view t) with (@None db); [reflexivity|].
    symmetry. apply Hv. intros ->. discriminate X. }
  assert (Mn : t_intx t = false -> a <> MClosed -> a = MN).
  { intros Y N. destruct a; cbn [has_mode] in Hm; try reflexivity; try contradiction;
      destruct Hm as (_ & Y' & _); congruence. }
  assert (Rd : t_view t = None <-> match a with MD0 => MD1 | _ => a end <> MW).
  { destruct a; try exact Hv; split; intros _; [discriminate|apply Hv; discriminate]. }
  subst t'. unfold store_after in Say |- *.
  destruct s as [|h| |imm|rd dst|w| | |r b];
    cbn [data newregs trm ran_thr committed t_view t_regs lock_op] in Say, Gr, A |- *.
  - rewrite Hp in Say |- *. apply (Say d None); auto; [|split; [discriminate|auto]].
    symmetry. apply Vo. destruct Hout as [X|(X & _)]; [exact X|contradiction].
  - apply (Say d (t_view t)); auto.
  - discriminate Hck.
  - assert (a = MN) by (destruct a; try discriminate Hck; reflexivity). subst a.
    destruct imm.
    + destruct A as (g & C & D). rewrite (Hg g C), Hd in D. inversion D; subst x'.
      apply (Say d (Some d)); auto; [symmetry; apply Vo; reflexivity|].
      split; [discriminate|intros X; contradiction X; reflexivity].
    + apply (Say d (t_view t)); auto. split; [discriminate|intros _; apply Hv; discriminate].
  - destruct A as (-> & g & C & Vi). rewrite (Hg g C) in Vi. pose proof (vis_xvis c d t x Hs Vi). subst x.
    apply (Say d (t_view t)); auto.
  - destruct A as (g & C & Vi & W). rewrite (Hg g C) in Vi. pose proof (vis_xvis c d t x Hs Vi). subst x.
    rewrite C, (Hg g C), Hs in Say |- *.
    destruct (t_intx t) eqn:Ix; cbn [upd_nth] in Say |- *.
    + assert (Tm : match a with MD0 | MD1 => MW | _ => a end = MW).
      { destruct a; cbn in Hm, Hck; try reflexivity; try discriminate Hck; destruct Hm as (_ & Y & _); congruence. }
      apply (Say d (Some x')); auto.
      rewrite Tm. split; [discriminate|intros X; contradiction X; reflexivity].
    + assert (a = MN) by (apply (Mn eq_refl); intros ->; discriminate Hck). subst a.
      apply (Say x' None); auto; [split; [discriminate|auto]|].
      (* an autocommit write moves the committed content: the lock table granted it to the one writer *)
      right. split; [reflexivity|]. destruct Gr as (g' & C' & Gr).
      rewrite (Hg g' C') in Gr. exact (write_granted _ _ _ _ Gr).
  - destruct (t_intx t) eqn:Ix.
    + destruct Gr as (g & C & _). rewrite C, (Hg g C), Hs in Say |- *.
      unfold xvis in Say |- *. destruct (t_view t) as [dv|] eqn:Vt; cbn [upd_nth] in Say |- *.
      * apply (Say dv None); auto; [split; [discriminate|auto]|].
        (* only a call in mode MW has a view *)
        right. split; [reflexivity|]. left.
        destruct a; try (apply Hm); assert (Y : Some dv = None) by (apply Hv; discriminate); discriminate Y.
      * apply (Say d None); auto. split; [discriminate|auto].
    + assert (a = MN) by (apply (Mn eq_refl); intros ->; discriminate Hck). subst a.
      apply (Say d (t_view t)); auto.
  - apply (Say d None); auto; [|split; [discriminate|auto]].
    symmetry. apply Vo. destruct Hout as [X|(_ & X)]; [exact X|contradiction].
  - apply (Say d (t_view t)); auto.
Qed.

Lemma adv_st m k t e : t_st t = Run -> t_st (advance_f m k t) <> Err e.
Proof.
  apply (advance_f_ind (fun _ u => t_st u = Run) (fun u => t_st u <> Err e)); auto; [discriminate|].
  intros k' u H. cbn. congruence.
Qed.

Definition inv2 (c : cfg) : Prop :=
  inv c /\ mutex c /\ c_path c = Some 0 /\
  exists d, c_store c = [Some d] /\
    (forall j u, nth_error (c_thrs c) j = Some u -> tinv2 d u) /\
    (forall j u e, nth_error (c_thrs c) j = Some u -> t_st u <> Err e).

Lemma conn_zero c j u g :
  inv c -> length (c_store c) = 1 -> nth_error (c_thrs c) j = Some u -> t_conn u = Some g -> g = 0.
Proof.
  intros (_ & _ & _ & Hts) L N C. destruct (connected_live _ _ _ _ _ Hts N C) as (_ & _ & B & _).
  specialize (B g C). lia.
Qed.

(* the other calls keep their knowledge when the committed content moves monotonically and the mover
   was the one writer *)
Lemma others_keep c tid t d d' j u :
  inv c -> mutex c -> c_store c = [Some d] ->
  nth_error (c_thrs c) tid = Some t -> (geb (t_lvl t) Res = true -> t_conn t = Some 0) ->
  writer c tid t -> (forall T, tget T d = TGood -> tget T d' = TGood) ->
  j <> tid -> nth_error (c_thrs c) j = Some u -> tinv2 d u -> tinv2 d' u.
Proof.
  intros Hi Mx Hs Nt Ct W Mo Hj Nu Tu Hrun. destruct (Tu Hrun) as (Hif & s & n & (A & B & C & D & E) & Ty).
  split; auto. exists s, n. split; auto.
  assert (Nm : a_mode s <> MW).
  { intros Q. rewrite Q in A. cbn [has_mode] in A. destruct A as (A1 & A2 & A3).
    destruct (t_conn u) as [g|] eqn:Cu; [|congruence].
    assert (g = 0) by (eapply conn_zero; eauto; rewrite Hs; reflexivity). subst g.
    destruct W as [W|W].
    - apply (Mx tid j t u 0); auto.
    - pose proof (others_in (c_thrs c) 0 tid 0 j u Nu ltac:(cbn; auto) Cu) as Hin.
      pose proof (any_geb_in _ _ _ W Hin). congruence. }
  assert (V : t_view u = None) by (apply B; auto).
  unfold gam. split; [exact A|]. split; [exact B|]. unfold xvis in C, D |- *. rewrite V in C, D |- *.
  split; [apply (G_move (a_mode s) _ d); auto; intros Q; contradiction|]. split; [auto|].
  intros Ei. destruct (E Ei) as (E1 & E2). split; apply Mo; auto.
Qed.

Lemma out_eqb_blocked o : out_eqb o OBlocked = true -> o = OBlocked.
Proof. destruct o; cbn; congruence. Qed.

Lemma hm_conn t a : has_mode t a -> geb (t_lvl t) Res = true -> t_conn t <> None.
Proof. destruct a; cbn; intros (A & B & C); auto; rewrite C; cbn; discriminate. Qed.

Lemma inv2_upd c tid tn p sto vi d' :
  inv (Cfg p sto (upd_nth tid tn (c_thrs c)) vi) -> mutex (Cfg p sto (upd_nth tid tn (c_thrs c)) vi) ->
  p = Some 0 -> sto = [Some d'] -> tinv2 d' tn -> (forall e, t_st tn <> Err e) ->
  (forall j u, j <> tid -> nth_error (c_thrs c) j = Some u -> tinv2 d' u) ->
  (forall j u e, nth_error (c_thrs c) j = Some u -> t_st u <> Err e) ->
  inv2 (Cfg p sto (upd_nth tid tn (c_thrs c)) vi).
Proof.
  intros I M -> -> Tn Ne Ht He. split; [exact I|]. split; [exact M|]. split; [reflexivity|].
  exists d'. split; [reflexivity|]. cbn [c_thrs].
  split; intros j u; [|intros e]; intros Nj; apply nth_upd_inv in Nj; destruct Nj as [(-> & ->)|(N1 & N2)].
  - exact Tn.
  - exact (Ht j u N1 N2).
  - apply Ne.
  - exact (He j u e N2).
Qed.

Lemma step_inv2 tid c : inv2 c -> inv2 (fst (step tid c)).
Proof.
  intros (Hi & Mx & Hp & d & Hs & Ht & He).
  (* inv and mutex of the next configuration, kept in the goal so that the case analysis rewrites them too *)
  pose proof (step_inv tid c Hi) as (Hi' & _ & _). pose proof (step_mutex tid c Mx) as Mx'. revert Hi' Mx'.
  assert (Hg0 : forall t g, nth_error (c_thrs c) tid = Some t -> t_conn t = Some g -> g = 0).
  { intros t g N. apply (conn_zero c tid t g Hi); [rewrite Hs; reflexivity|exact N]. }
  assert (Hc : forall t, nth_error (c_thrs c) tid = Some t -> forall g, t_conn t = Some g -> content c g <> None).
  { intros t N g C. rewrite (Hg0 t g N C). unfold content. rewrite Hs. discriminate. }
  assert (Ty : forall t s k, nth_error (c_thrs c) tid = Some t -> t_st t = Run -> t_k t = IS s :: k ->
                 t_ifail t = false /\ exists sg sg' n, gam d t sg /\ trs s sg = Some sg' /\ tys_f n k sg' = true).
  { intros t s k N R K. destruct (Ht tid t N R) as (Hif & sg & [|n] & Hg & Hty); [discriminate|].
    rewrite K in Hty. cbn [tys_f] in Hty. destruct (trs s sg) as [sg'|] eqn:Et; [|discriminate]. eauto 8. }
  destruct (step_stepped tid c)
    as [|t N R|t s k rr N R K [e o F _ _|g op l t' C O B ->|g _ C D|l x x' vi o r' O1 O2 V A ->]];
    cbn [fst r_thr r_path r_store r_viol r_out mk]; intros Hi' Mx'.
  - split; [exact Hi|]. split; [exact Mx|]. split; [exact Hp|]. exists d. auto.
  - destruct (Ht tid t N R) as (Hif & sg & n & Hg & Hty).
    apply (inv2_upd c tid _ _ _ _ d Hi' Mx' Hp Hs); [|intros e; apply adv_st; exact R|intros j u _ Nj; exact (Ht j u Nj)|exact He].
    unfold advance. apply (advance_f_gam d _ _ t sg n); auto.
  - (* a failure would be a schema error, which the typing excludes *)
    exfalso. destruct (Ty t s k N R K) as (Hif & sg & sg' & n & Hg & Et & Hty).
    destruct (trs_check _ _ _ Et) as (Hck & _). pose proof Hg as (A & _ & C0 & _).
    pose proof (fails_schema c tid t s e _ F A Hck (Hc t N)) as ->.
    destruct (trs_noerr (a_mode sg) (xvis t d) (t_regs t) s sg sg' (t_par t) (conj eq_refl C0) Et) as (N1 & N2).
    remember ESchema as e eqn:Ee in F.
    destruct F as [| | | | |r dst g d0 e C V Rd|w g d0 e C V W|]; try discriminate Ee; subst e;
      rewrite (Hg0 t g N C) in V; pose proof (vis_xvis c d t d0 Hs V); subst d0.
    + destruct (N1 _ _ eq_refl) as (b & Eb). congruence.
    + destruct (N2 _ eq_refl) as (b & Eb). congruence.
  - destruct (Ty t s k N R K) as (Hif & sg & sg' & n & Hg & Et & Hty). destruct Hg as (A & B' & C0 & D & E0).
    apply (inv2_upd c tid _ _ _ _ d Hi' Mx' Hp Hs); [|cbn; congruence|intros j u _ Nj; exact (Ht j u Nj)|exact He].
    intros _. split; [exact Hif|]. exists sg, (S n). split.
    + split; [exact (block_mode t _ _ op l A B)|]. split; [exact B'|]. split; [exact C0|]. split; [exact D|exact E0].
    + cbn [with_lock t_k]. rewrite K. cbn [tys_f]. rewrite Et. exact Hty.
  - destruct (Hc t N g C D).
  - destruct (Ty t s k N R K) as (Hif & sg & sg' & n & Hg & Et & Hty).
    destruct (trs_check _ _ _ Et) as (Hck & Hout). pose proof Hg as (A0 & B & C0 & D & E0).
    destruct (ran_shape c tid d t s (a_mode sg) l x x' Hp Hs A0 Hck B (fun g => Hg0 t g N) Hout A)
      as (d' & S1 & S3 & S4 & S6 & S7).
    set (t' := ran_thr c t s l x x') in S3, S4, S6, S7 |- *.
    pose proof (trs_sound (a_mode sg) (xvis t d) (t_regs t) s sg sg' (t_par t) _ (conj eq_refl C0) Et S3) as (M & G').
    assert (MoX : forall T, tget T (xvis t d) = TGood -> tget T (xvis t' d') = TGood).
    { intros T HT. destruct s; cbn [data] in S3; try (rewrite S3; exact HT).
      apply (trs_mono (a_mode sg) (xvis t d) (t_regs t) w sg sg' (t_par t)); auto.
      split; [reflexivity|exact C0]. }
    assert (Mo : forall T, tget T d = TGood -> tget T d' = TGood).
    { destruct S7 as [->|(-> & _)]; auto. }
    assert (Hs' : s <> SRemove) by (intros ->; discriminate).
    apply (inv2_upd c tid _ _ _ _ d' Hi' Mx');
      [destruct s; cbn; unfold conn_gen; rewrite ?Hp; congruence|exact S1| |intros e; apply adv_st; exact R| |exact He].
    + unfold advance. apply (advance_f_gam d' _ k t' sg' n); auto.
      unfold gam. rewrite M.
      split; [exact (ran_mode c tid t s l x x' _ A0 Hck A)|].
      split; [exact S6|]. split; [rewrite S4; exact G'|].
      split; [intros T HT; destruct S7 as [Sd|(Sd & _)]; [subst d'; auto|rewrite <- Sd; exact HT]|].
      intros Ei. destruct (E0 Ei). split; apply Mo; auto.
    + intros j u Nj1 Nj2. destruct S7 as [Sd|(Sd & W)]; [subst d'; eapply Ht; eauto|].
      apply (others_keep c tid t d d' j u); auto; [|eapply Ht; eauto].
      intros Gq. pose proof (hm_conn t _ A0 Gq) as Cn. destruct (t_conn t) as [g|] eqn:Ct; [|congruence].
      rewrite (Hg0 t g N Ct). reflexivity.
Qed.

Lemma run_inv2 sched c : inv2 c -> inv2 (fst (run sched c)).
Proof. apply run_preserves. exact step_inv2. Qed.

Lemma init_inv2 p d0 pars :
  side_ok_full p = true ->
  (forall par, In par pars -> p_init par = false -> good2 d0) ->
  inv2 (init_cfg p (Some d0) pars).
Proof.
  intros Hs H0. unfold side_ok_full in Hs. apply andb_true_iff in Hs. destruct Hs as (Hs1 & Hs2).
  split; [apply init_inv; auto|]. split; [apply init_mutex|]. split; [reflexivity|].
  exists d0. split; [reflexivity|]. cbn [init_cfg c_thrs]. split.
  - intros j u Nj. apply nth_error_In in Nj. apply in_map_iff in Nj. destruct Nj as (par & <- & Hin).
    unfold new_thr, advance.
    apply (advance_f_gam d0 _ p _ ast0 (S (S (size p)))); auto.
    unfold gam, xvis. cbn [t_view t_regs t_par a_mode a_vm a_vx a_regs ast0].
    split; [cbn; auto|]. split; [split; intros; [discriminate|reflexivity]|].
    split; [repeat split; cbn; auto|]. split; [auto|]. intros Ei. apply (H0 par); auto.
  - intros j u e Nj. apply nth_error_In in Nj. apply in_map_iff in Nj. destruct Nj as (par & <- & Hin).
    unfold new_thr, advance. apply adv_st. reflexivity.
Qed.

(* C02_safe *)
Theorem safe_full p d0 pars sched :
  side_ok_full p = true ->
  (forall par, In par pars -> p_init par = false -> good2 d0) ->
  let c := fst (run sched (init_cfg p (Some d0) pars)) in
  c_viol c = false /\ c_path c = Some 0 /\ (exists d, c_store c = [Some d]) /\
  (forall t, In t (c_thrs c) -> forall e, t_st t <> Err e).
Proof.
  intros Hs H0 c.
  pose proof (run_inv2 sched _ (init_inv2 p d0 pars Hs H0)) as ((_ & _ & Hv & _) & _ & Hp & d & Hst & _ & He).
  fold c in Hv, Hp, Hst, He.
  split; [exact Hv|]. split; [exact Hp|]. split; [eauto|].
  intros t Hin e. apply In_nth_error in Hin. destruct Hin as (j & Nj). eapply He; eauto.
Qed.
