(* C21 — proofs over Model/C21_crash.v.
   The format: the encoder's output is accepted by the online decoder with nothing left over (any value),
   so a prefix of a written file decodes to EOF or, if it is all of it, to the value.
   The world: an invariant (every cache file is a prefix of some dump, and a complete one that passes the
   mtime test was compiled from the current sources) under which load_model returns the right model or
   raises what transfer_model answers by recompiling; the property by induction over arbitrary histories. *)
From Coq Require Import List Arith Bool Lia.
From PV Require Import Lib.Prefix Model.C21_crash.
Import ListNotations.

Local Notation R := (run step).

Lemma run_cons s b r :
  R s (b :: r) = match step s b with Done v => Value v r | More s' => R s' r | Fail => Bad end.
Proof. reflexivity. Qed.

(* pv is nested through list: the generated principle says nothing of the elements of a PList *)
Fixpoint pv_ind' (P : pv -> Prop)
  (hN : P PNone) (hI : forall n, P (PInt n)) (hB : forall l, P (PBytes l))
  (hL : forall l, Forall P l -> P (PList l)) (hT : forall a b, P a -> P b -> P (PTuple2 a b))
  (v : pv) : P v :=
  match v with
  | PNone => hN
  | PInt n => hI n
  | PBytes l => hB l
  | PList l => hL l ((fix go (l : list pv) : Forall P l :=
                        match l with
                        | [] => Forall_nil P
                        | x :: r => Forall_cons x (pv_ind' P hN hI hB hL hT x) (go r)
                        end) l)
  | PTuple2 a b => hT a b (pv_ind' P hN hI hB hL hT a) (pv_ind' P hN hI hB hL hT b)
  end.

Definition encs (l : list pv) : list byte :=
  (fix encs (l : list pv) : list byte := match l with [] => [] | x :: r => enc x ++ encs r end) l.
Lemma enc_list l : enc (PList l) = 93 :: 148 :: 40 :: encs l ++ [101].
Proof. reflexivity. Qed.
Lemma encs_cons x r : encs (x :: r) = enc x ++ encs r.
Proof. reflexivity. Qed.

Lemma st_none k m : step (St MOp k m) 78 = More (St MOp (IV PNone :: k) m). Proof. reflexivity. Qed.
Lemma st_int k m : step (St MOp k m) 75 = More (St MInt k m). Proof. reflexivity. Qed.
Lemma st_intarg k m n : step (St MInt k m) n = More (St MOp (IV (PInt n) :: k) m). Proof. reflexivity. Qed.
Lemma st_bytes k m : step (St MOp k m) 67 = More (St MBytesLen k m). Proof. reflexivity. Qed.
Lemma st_memo k m v : step (St MOp (IV v :: k) m) 148 = More (St MOp (IV v :: k) (m ++ [v])). Proof. reflexivity. Qed.
Lemma st_elist k m : step (St MOp k m) 93 = More (St MOp (IV (PList []) :: k) m). Proof. reflexivity. Qed.
Lemma st_mark k m : step (St MOp k m) 40 = More (St MOp (IMark :: k) m). Proof. reflexivity. Qed.
Lemma st_tuple2 k m x y : step (St MOp (IV y :: IV x :: k) m) 134 = More (St MOp (IV (PTuple2 x y) :: k) m).
Proof. reflexivity. Qed.
Lemma st_appends k m :
  step (St MOp k m) 101 = match pop_mark k [] with
                          | Some (vs, IV (PList l) :: r) => More (St MOp (IV (PList (l ++ vs)) :: r) m)
                          | _ => Fail end.
Proof. reflexivity. Qed.
Lemma st_stop m v : step (St MOp [IV v] m) 46 = Done v. Proof. reflexivity. Qed.
Lemma st_proto k m : step (St MOp k m) 128 = More (St MProto k m). Proof. reflexivity. Qed.
Lemma st_protoarg k m b : step (St MProto k m) b = More (St MOp k m). Proof. reflexivity. Qed.
Lemma st_frame k m : step (St MOp k m) 149 = More (St (MFrame 7) k m). Proof. reflexivity. Qed.

Lemma skip_frame rest : forall l n k m, length l = S n ->
  R (St (MFrame n) k m) (l ++ rest) = R (St MOp k m) rest.
Proof.
  induction l as [|b l IH]; intros n k m H; [discriminate|].
  cbn [app]. rewrite run_cons. destruct n as [|n].
  - destruct l; [|discriminate]. reflexivity.
  - change (step (St (MFrame (S n)) k m) b) with (More (st:=st) (val:=pv) (St (MFrame n) k m)).
    apply IH. cbn in H. lia.
Qed.

Lemma read_bytes rest k m : forall l x acc,
  R (St (MBytes (length l) acc) k m) (x :: l ++ rest) = R (St MOp (IV (PBytes (acc ++ x :: l)) :: k) m) rest.
Proof.
  induction l as [|y l IH]; intros x acc.
  - reflexivity.
  - cbn [app length]. rewrite run_cons.
    change (step (St (MBytes (S (length l)) acc) k m) x)
      with (More (st:=st) (val:=pv) (St (MBytes (length l) (acc ++ [x])) k m)).
    cbv iota. rewrite (IH y (acc ++ [x])). rewrite <- app_assoc. reflexivity.
Qed.

Lemma pop_mark_rev l : forall tail acc,
  pop_mark (rev (map IV l) ++ tail) acc = pop_mark tail (l ++ acc).
Proof.
  induction l as [|x l IH]; intros tail acc; [reflexivity|].
  cbn [map rev]. rewrite <- app_assoc. rewrite IH. reflexivity.
Qed.

Definition enc_okP (v : pv) : Prop := forall k m rest,
  exists m', R (St MOp k m) (enc v ++ rest) = R (St MOp (IV v :: k) m') rest.

Lemma encs_ok l : Forall enc_okP l -> forall k m rest,
  exists m', R (St MOp k m) (encs l ++ rest) = R (St MOp (rev (map IV l) ++ k) m') rest.
Proof.
  induction 1 as [|x l Hx _ IH]; intros k m rest.
  - exists m. reflexivity.
  - rewrite encs_cons, <- app_assoc.
    destruct (Hx k m (encs l ++ rest)) as [m1 E1].
    destruct (IH (IV x :: k) m1 rest) as [m2 E2].
    exists m2. etransitivity; [exact E1|]. etransitivity; [exact E2|].
    cbn [map rev]. rewrite <- app_assoc. reflexivity.
Qed.

Lemma enc_ok : forall v, enc_okP v.
Proof.
  induction v using pv_ind'; intros k m rest.
  - exists m. reflexivity.
  - exists m. reflexivity.
  - exists (m ++ [PBytes l]).
    change (enc (PBytes l) ++ rest) with (67 :: length l :: (l ++ [148]) ++ rest).
    rewrite run_cons, st_bytes. rewrite <- app_assoc. destruct l as [|x l].
    + reflexivity.
    + rewrite run_cons.
      change (step (St MBytesLen k m) (length (x :: l)))
        with (More (st:=st) (val:=pv) (St (MBytes (length l) []) k m)).
      cbv iota. cbn [app].
      etransitivity; [exact (read_bytes (148 :: rest) k m l x [])|reflexivity].
  - rewrite enc_list.
    change ((93 :: 148 :: 40 :: encs l ++ [101]) ++ rest)
      with (93 :: 148 :: 40 :: (encs l ++ [101]) ++ rest).
    rewrite run_cons, st_elist, run_cons, st_memo, run_cons, st_mark, <- app_assoc.
    destruct (encs_ok l H (IMark :: IV (PList []) :: k) (m ++ [PList []]) ([101] ++ rest)) as [m' E].
    exists m'. etransitivity; [exact E|].
    cbn [app]. rewrite run_cons, st_appends, pop_mark_rev.
    cbn [pop_mark app]. rewrite app_nil_r. reflexivity.
  - change (enc (PTuple2 v1 v2)) with (enc v1 ++ enc v2 ++ [134; 148]).
    rewrite <- !app_assoc.
    destruct (IHv1 k m (enc v2 ++ [134; 148] ++ rest)) as [m1 E1].
    destruct (IHv2 (IV v1 :: k) m1 ([134; 148] ++ rest)) as [m2 E2].
    exists (m2 ++ [PTuple2 v1 v2]).
    etransitivity; [exact E1|]. etransitivity; [exact E2|]. reflexivity.
Qed.

Lemma length_le_bytes k : forall n, length (le_bytes k n) = k.
Proof. induction k; intros n; cbn [le_bytes length]; [reflexivity|]. now rewrite IHk. Qed.

Theorem dump_accepted v : accepted step init (dump v) v.
Proof.
  unfold accepted, dump, init.
  rewrite run_cons, st_proto, run_cons, st_protoarg, run_cons, st_frame.
  rewrite (skip_frame _ _ 7 [] [] (length_le_bytes 8 _)).
  destruct (enc_ok v [] [] [46]) as [m' E]. etransitivity; [exact E|].
  rewrite run_cons, st_stop. reflexivity.
Qed.

Corollary dump_prefix_eof v pre suf : dump v = pre ++ suf -> suf <> [] -> decode pre = EOF.
Proof. intros E N. exact (prefix_eof step (dump v) init v pre suf (dump_accepted v) E N). Qed.

Lemma decode_prefix v pre suf : dump v = pre ++ suf ->
  decode pre = match suf with [] => Value v [] | _ :: _ => EOF end.
Proof.
  intros E. destruct suf.
  - rewrite app_nil_r in E. rewrite <- E. apply dump_accepted.
  - apply (dump_prefix_eof v _ _ E). discriminate.
Qed.

Lemma decode_firstn v n :
  decode (firstn n (dump v)) = match skipn n (dump v) with [] => Value v [] | _ :: _ => EOF end.
Proof. apply decode_prefix. symmetry. apply firstn_skipn. Qed.

Definition Inv (w : world) : Prop :=
  smt w <= clock w /\
  match cfile w with
  | None => True
  | Some (bs, mt) =>
      mt <= clock w /\
      exists vr o s suf, dump (db_of vr o s) = bs ++ suf /\ (suf = [] -> smt w <= mt -> s = src w)
  end.

Definition good (w : world) (o : nat) (r : outcome) : Prop :=
  match r with
  | Loaded m | Recompiled m => m = (src w, o)
  | Raised _ => False
  | Died => True
  end.

Lemma routes_ok_elim t : routes_ok t = true ->
  (forall b, transfer_recompiles t (load_route t (eof_exc b)) = true) /\
  transfer_recompiles t InvalidCacheError = true /\ transfer_recompiles t FileNotFoundError = true.
Proof.
  unfold routes_ok. intros H. apply andb_true_iff in H as [H H4]. apply andb_true_iff in H as [H H3].
  apply andb_true_iff in H as [H1 H2]. repeat split; auto. intros []; assumption.
Qed.

Lemma routes_unpickling t : routes_ok t = true -> transfer_recompiles t (load_route t UnpicklingError) = true.
Proof. intros Hr. exact (proj1 (routes_ok_elim t Hr) false). Qed.

Lemma decode_db_of vr o s : decode_db (db_of vr o s) = Some (vr, o, (s, o)).
Proof. reflexivity. Qed.

Definition answered (t : tables) (w : world) (o : nat) (r : exc + modelid) : Prop :=
  match r with
  | inr m => m = (src w, o)
  | inl x => transfer_recompiles t x = true
  end.

Lemma load_gen_verdict t w o e bx bs mt : routes_ok t = true -> cfile w = Some (bs, mt) ->
  (smt w <= mt ->
   match decode bs with
   | Value v _ => exists vr o', v = db_of vr o' (src w)
   | EOF => True
   | Bad => transfer_recompiles t (load_route t bx) = true
   end) ->
  answered t w o (load_gen t w o e bx).
Proof.
  intros Hr Hf Hd. destruct (routes_ok_elim t Hr) as (He & Hi & _).
  unfold load_gen. rewrite Hf. destruct (mt <? smt w) eqn:Elt; [exact Hi|].
  apply Nat.ltb_ge in Elt. specialize (Hd Elt). destruct (decode bs) as [v rest| |].
  - destruct Hd as (vr & o' & ->). rewrite decode_db_of.
    destruct (vr =? ver w); cbn [negb]; [|exact Hi].
    destruct (o' =? o) eqn:Eo; cbn [negb]; [|exact Hi]. apply Nat.eqb_eq in Eo. subst o'. reflexivity.
  - apply He.
  - exact Hd.
Qed.

Lemma load_gen_ok t w o e bx : routes_ok t = true -> Inv w -> answered t w o (load_gen t w o e bx).
Proof.
  intros Hr [_ Hf]. destruct (cfile w) as [[bs mt]|] eqn:Ef.
  - destruct Hf as (_ & vr & o' & s & suf & Hd & Hs).
    apply (load_gen_verdict t w o e bx bs mt Hr Ef). intros Hle. rewrite (decode_prefix _ _ _ Hd).
    destruct suf; [|exact I]. exists vr, o'. rewrite (Hs eq_refl Hle). reflexivity.
  - unfold load_gen. rewrite Ef. apply (routes_ok_elim t Hr).
Qed.

Lemma load_ok t w o e : routes_ok t = true -> Inv w ->
  match load_model t w o e with
  | inr m => m = (src w, o)
  | inl x => transfer_recompiles t x = true
  end.
Proof. exact (load_gen_ok t w o e UnpicklingError). Qed.

Lemma Inv_partial w o j : Inv w -> Inv (partial_write w o j).
Proof.
  intros [Hc Hf]. destruct j as [|k]; [split; assumption|].
  split; [exact Hc|]. cbn. split; [lia|].
  exists (ver w), o, (src w), (skipn k (dump (db_of (ver w) o (src w)))).
  split; [symmetry; apply firstn_skipn|]. intros _ _. reflexivity.
Qed.

Lemma src_partial w o j : src (partial_write w o j) = src w.
Proof. destruct j; reflexivity. Qed.

Lemma good_partial w o j o' r : good (partial_write w o j) o' r -> good w o' r.
Proof. unfold good. rewrite src_partial. exact (fun H => H). Qed.

Lemma Inv_no_file w : Inv w -> Inv (set_cfile w None).
Proof. intros [Hc _]. split; [exact Hc|exact I]. Qed.

(* an edit makes every cache file older than the sources *)
Lemma Inv_edit w : Inv w -> Inv (W (S (src w)) (S (clock w)) (S (clock w)) (ver w) (cfile w)).
Proof.
  intros [_ Hf]. split; [apply le_n|]. cbn [cfile clock smt src]. destruct (cfile w) as [[bs mt]|]; [|exact I].
  destruct Hf as (Hmt & vr & o & s & suf & Hd & _). split; [lia|].
  exists vr, o, s, suf. split; [exact Hd|]. intros _ Hle. lia.
Qed.

Lemma Inv_cut w bs mt j : Inv w -> cfile w = Some (bs, mt) -> Inv (set_cfile w (Some (firstn j bs, mt))).
Proof.
  intros [Hc Hf] Ef. rewrite Ef in Hf. destruct Hf as (Hmt & vr & o & s & suf & Hd & Hs).
  split; [exact Hc|]. split; [exact Hmt|]. exists vr, o, s, (skipn j bs ++ suf). split.
  - rewrite app_assoc, firstn_skipn. exact Hd.
  - intros [_ Hsuf]%app_eq_nil. exact (Hs Hsuf).
Qed.

Lemma load_cases t w o e : routes_ok t = true -> Inv w ->
  load_model t w o e = inr (src w, o) \/
  exists x, load_model t w o e = inl x /\ transfer_recompiles t x = true.
Proof.
  intros Hr Hi. pose proof (load_ok t w o e Hr Hi) as H.
  destruct (load_model t w o e) as [x|m]; [right; eauto|left; rewrite H; reflexivity].
Qed.

Lemma transfer_cut_good t w o e j : routes_ok t = true -> Inv w ->
  good w o (snd (transfer_cut t w o e j)) /\ Inv (fst (transfer_cut t w o e j)).
Proof.
  intros Hr Hi. unfold transfer_cut. destruct (load_cases t w o e Hr Hi) as [->|(x & -> & ->)].
  - split; [reflexivity|exact Hi].
  - unfold full_write. destruct (j <? nsteps w o); (split; [cbn [snd good]; auto|apply Inv_partial, Hi]).
Qed.

Lemma src_transfer_cut t w o e j : src (fst (transfer_cut t w o e j)) = src w.
Proof.
  unfold transfer_cut, full_write. destruct (load_model t w o e) as [x|m]; [|reflexivity].
  destruct (transfer_recompiles t x); [|reflexivity]. destruct (j <? nsteps w o); apply src_partial.
Qed.

Lemma transfer_is_cut t w o e : transfer t w o e = transfer_cut t w o e (nsteps w o).
Proof. unfold transfer, transfer_cut. rewrite Nat.ltb_irrefl. reflexivity. Qed.

Lemma transfer_good t w o e : routes_ok t = true -> Inv w ->
  good w o (snd (transfer t w o e)) /\ Inv (fst (transfer t w o e)).
Proof. rewrite transfer_is_cut. apply transfer_cut_good. Qed.

Definition op_opts (p : op) : nat :=
  match p with Transfer o _ | CrashT o _ _ | Reader o _ _ _ | Reader2 o _ _ _ _ | Gap o _ _ _ => o | _ => 0 end.

(* every output of an op is good for the options its caller asked for *)
Definition outs_good (w : world) (p : op) (outs : list outcome) : Prop :=
  match p with
  | Two oa ob _ _ _ => match outs with [ra; rb] => good w oa ra /\ good w ob rb | _ => False end
  | _ => Forall (good w (op_opts p)) outs
  end.

Lemma decide_good t w o e : routes_ok t = true -> Inv w -> good w o (fst (decide t w o e)).
Proof.
  intros Hr Hi. unfold decide. destruct (load_cases t w o e Hr Hi) as [->|(x & -> & ->)]; reflexivity.
Qed.

Lemma two_outs t w oa ob ea eb lb :
  snd (two t w oa ob ea eb lb) = [fst (decide t w oa ea); fst (decide t w ob eb)].
Proof. unfold two. destruct (decide t w oa ea), (decide t w ob eb). reflexivity. Qed.

Lemma two_Inv t w oa ob ea eb lb : Inv w -> Inv (fst (two t w oa ob ea eb lb)).
Proof.
  intros Hi. unfold two, full_write. destruct (decide t w oa ea) as [ra [|]], (decide t w ob eb) as [rb [|]], lb;
    try apply Inv_partial; exact Hi.
Qed.

Lemma two_good t w oa ob ea eb lb : routes_ok t = true -> Inv w ->
  exists ra rb, snd (two t w oa ob ea eb lb) = [ra; rb] /\ good w oa ra /\ good w ob rb.
Proof.
  intros Hr Hi. exists (fst (decide t w oa ea)), (fst (decide t w ob eb)).
  split; [apply two_outs|]. split; apply decide_good; assumption.
Qed.

Lemma let_pair {A B C} (p : A * B) (f : A -> B -> C) : (let (a, b) := p in f a b) = f (fst p) (snd p).
Proof. destruct p. reflexivity. Qed.

Lemma step_op_good t w p : routes_ok t = true -> Inv w ->
  outs_good w p (snd (step_op t w p)) /\ Inv (fst (step_op t w p)).
Proof.
  intros Hr Hi. pose proof (fun o j => Inv_partial w o j Hi) as Ip.
  destruct p as [| |o e|o e j|j|o e e' j|oa ob ea eb lb|o e ea eb j|o e late sf]; cbn [step_op op_opts outs_good].
  - split; [constructor|exact (Inv_edit w Hi)].
  - split; [constructor|exact Hi].
  - rewrite let_pair. destruct (transfer_good t w o e Hr Hi) as [G I'].
    split; [repeat constructor; exact G|exact I'].
  - rewrite let_pair. destruct (transfer_cut_good t w o e j Hr Hi) as [G I'].
    split; [repeat constructor; exact G|exact I'].
  - split; [constructor|]. cbn [fst].
    destruct (cfile w) as [[bs mt]|] eqn:Ef; [exact (Inv_cut w bs mt j Hi Ef)|exact Hi].
  - (* Reader: the reader sees w, or what the writer has written of its j steps *)
    destruct (load_cases t w o e Hr Hi) as [->|(x & -> & ->)]; rewrite let_pair; cbn [fst snd].
    + destruct (transfer_good t w o e' Hr Hi) as [G I'].
      split; [repeat constructor; exact G|exact I'].
    + destruct (transfer_good t _ o e' Hr (Ip o j)) as [G%good_partial _].
      split; [repeat constructor; exact G|apply Ip].
  - destruct (two_good t w oa ob ea eb lb Hr Hi) as (ra & rb & -> & G).
    split; [exact G|apply two_Inv, Hi].
  - destruct (load_cases t w o e Hr Hi) as [->|(x & -> & ->)]; rewrite let_pair, two_outs; cbn [fst snd app].
    + split; [repeat constructor; apply decide_good; assumption|apply two_Inv, Hi].
    + split; [repeat constructor; apply (good_partial w o j), decide_good; auto|apply Ip].
  - pose proof (Inv_no_file w Hi) as In0. unfold gap. destruct late; rewrite let_pair.
    + split; [repeat constructor; apply decide_good; assumption|].
      destruct (snd (decide t w o e)), sf; cbn [andb negb]; try exact In0. apply Ip.
    + destruct (transfer_good t (set_cfile w None) o e Hr In0) as [G I'].
      split; [repeat constructor; exact G|exact I'].
Qed.

Fixpoint all_good (t : tables) (w : world) (h : list op) : Prop :=
  match h with
  | [] => True
  | p :: h' => outs_good w p (snd (step_op t w p)) /\ all_good t (fst (step_op t w p)) h'
  end.

Fixpoint world_after (t : tables) (w : world) (h : list op) : world :=
  match h with [] => w | p :: h' => world_after t (fst (step_op t w p)) h' end.

Lemma Inv_w0 : Inv w0.
Proof. split; [apply le_n|exact I]. Qed.

Lemma hist_good t h : routes_ok t = true -> forall w, Inv w -> all_good t w h /\ Inv (world_after t w h).
Proof.
  intros Hr. induction h as [|p h IH]; intros w Hi; [exact (conj I Hi)|].
  destruct (step_op_good t w p Hr Hi) as [G I']. destruct (IH _ I') as [A B]. exact (conj (conj G A) B).
Qed.

Lemma all_good_from t h : routes_ok t = true -> forall w, Inv w -> all_good t w h.
Proof. intros Hr w Hi. exact (proj1 (hist_good t h Hr w Hi)). Qed.

Lemma Inv_after t h : routes_ok t = true -> forall w, Inv w -> Inv (world_after t w h).
Proof. intros Hr w Hi. exact (proj2 (hist_good t h Hr w Hi)). Qed.

Lemma Inv_reached t h : routes_ok t = true -> Inv (world_after t w0 h).
Proof. intros Hr. exact (Inv_after t h Hr w0 Inv_w0). Qed.

(* what C21_crash says of the history h ++ [p], read off at p *)
Lemma reached_step_good t h p : routes_ok t = true ->
  let w := world_after t w0 h in outs_good w p (snd (step_op t w p)).
Proof. intros Hr w. exact (proj1 (step_op_good t w p Hr (Inv_reached t h Hr))). Qed.

Lemma crash_point t h ow e j o e' : routes_ok t = true ->
  let w := world_after t w0 h in
  let w' := fst (transfer_cut t w ow e j) in
  good w o (snd (transfer t w' o e')).
Proof.
  intros Hr w w'. destruct (transfer_cut_good t w ow e j Hr (Inv_reached t h Hr)) as [_ I'].
  destruct (transfer_good t w' o e' Hr I') as [G _].
  unfold good in *. unfold w' in G. rewrite src_transfer_cut in G. exact G.
Qed.
