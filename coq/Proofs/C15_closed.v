(* C15 — closedness: the closed form of the value-into-value loop; a pass that substitutes a map
   whose values mention declared symbols outside its domain, and un-declares names of that domain
   only, keeps the model closed; the passes of _simplify_once are of that shape. *)
From Coq Require Import ZArith QArith Qcanon List Bool PArith Lia.
Import ListNotations.
From PV Require Import Model.C14_simplify Proofs.C14_simplify Proofs.C14_compose Proofs.C15_square.
Local Opaque SUBSTITUTE_LOOP_LIMIT.   (* or simpl / cbn unfold a hundred rounds of the loop *)

Lemma expr_eqb_eq a : forall b, expr_eqb a b = true -> a = b.
Proof.
  induction a as [x | q | o a IH | o a1 IH1 a2 IH2]; intros [y | p | o' b | o' b1 b2];
    cbn [expr_eqb]; try discriminate.
  - intro H. apply Pos.eqb_eq in H. now subst.
  - intro H. apply qeqb_true in H. now subst.
  - intro H. apply andb_true_iff in H. destruct H as [H1 H2].
    apply uop_eqb_true in H1. subst. f_equal. now apply IH.
  - intro H. apply andb_true_iff in H. destruct H as [H H3]. apply andb_true_iff in H. destruct H as [H1 H2].
    apply bop_eqb_true in H1. subst. f_equal; [now apply IH1 | now apply IH2].
Qed.
Lemma list_eqb_eq (l1 : list expr) : forall l2, list_eqb expr_eqb l1 l2 = true -> l1 = l2.
Proof.
  induction l1 as [| a l1 IH]; intros [| b l2]; cbn [list_eqb]; try discriminate; auto.
  intro H. apply andb_true_iff in H. destruct H as [H1 H2]. f_equal; [now apply expr_eqb_eq | now apply IH].
Qed.

Local Transparent subst_fix.
Lemma subst_fix_conv n vars : forall vals,
  snd (subst_fix n vars vals) = true ->
  sub_step (combine vars (fst (subst_fix n vars vals))) = combine vars (fst (subst_fix n vars vals)).
Proof.
  induction n as [| n IH]; intros vals; cbn [subst_fix]; [discriminate |].
  remember (map (subst (combine vars vals)) vals) as nv eqn:Hnv.
  destruct (list_eqb expr_eqb vals nv) eqn:E; [| apply IH].
  intros _. apply list_eqb_eq in E. subst vals. cbn [fst]. rewrite <- combine_sub_step. now rewrite <- Hnv.
Qed.
Local Opaque subst_fix.

(* every symbol of a resolved value occurs in one of the original values *)
Definition sym_in (s : sub) (x : name) : Prop := exists y v, In (y, v) s /\ occurs x v = true.
Lemma sub_step_origin s x : sym_in (sub_step s) x -> sym_in s x.
Proof.
  intros [y [v' [Hin Ho]]]. unfold sub_step in Hin. apply in_map_iff in Hin.
  destruct Hin as [[y0 v] [E Hin]]. simpl in E. inversion E. subst y0 v'. clear E.
  apply subst_occ in Ho. destruct Ho as [[Ho _] | [z [w [_ [L Hw]]]]].
  - exists y, v. auto.
  - exists z, w. split; auto. eapply lookup_In; eauto.
Qed.

Lemma fix_domfree rk s : tri rk s -> sub_step s = s ->
  forall x v y w, In (x, v) s -> lookup y s = Some w -> occurs y v = false.
Proof.
  (* at a fixpoint every value is its own substitution instance: a defined y in the value of x
     comes from the value of some z of lower rank, which by induction on the rank has none *)
  intros T Fx.
  assert (K : forall k x v y w, (rk x <= k)%nat -> In (x, v) s -> lookup y s = Some w -> occurs y v = false).
  { induction k as [| k IH]; intros x v y w Hk Hin L; destruct (occurs y v) eqn:O; auto; exfalso.
    - assert (rk y < rk x)%nat by (eapply T; eauto). lia.
    - rewrite <- Fx in Hin. unfold sub_step in Hin. apply in_map_iff in Hin.
      destruct Hin as [[x0 v0] [E Hin]]. simpl in E. inversion E. subst x0 v. clear E.
      apply subst_occ in O. destruct O as [[_ L'] | [z [w0 [Hz [Lz Hy]]]]]; [congruence |].
      assert (rk z < rk x)%nat by (eapply T; eauto).
      assert (In (z, w0) s) by (eapply lookup_In; eauto).
      rewrite (IH z w0 y w) in Hy; [discriminate | lia | assumption | assumption]. }
  intros x v y w. apply (K (rk x)). lia.
Qed.

(* acyclic definitions + converged loop: the resolved values mention no defined variable, and
   only symbols of the original values *)
Theorem loop_closed_form (d : sub) :
  acyclic d ->
  let res := subst_fix SUBSTITUTE_LOOP_LIMIT (map fst d) (map snd d) in
  snd res = true ->
  let s := combine (map fst d) (fst res) in
  (forall x v y w, In (x, v) s -> lookup y s = Some w -> occurs y v = false)
  /\ (forall x, sym_in s x -> sym_in d x).
Proof.
  intros [rk T] res Hc s. split.
  - apply (fix_domfree rk); [exact (resolved_keeps (tri rk) d (tri_step rk) T) | now apply subst_fix_conv].
  - intro x. apply (resolved_keeps (fun s0 => sym_in s0 x -> sym_in d x)); [| auto].
    intros s0 H H'. now apply H, sub_step_origin.
Qed.

(* all that the passes use of the loop *)
Definition closed_form_of (d s : sub) : Prop :=
  map fst s = map fst d
  /\ forall y v x, lookup y s = Some v -> occurs x v = true -> lookup x s = None /\ sym_in d x.

Lemma loop_values (d : sub) vals :
  acyclic d -> subst_fix SUBSTITUTE_LOOP_LIMIT (map fst d) (map snd d) = (vals, true) ->
  closed_form_of d (combine (map fst d) vals).
Proof.
  intros Hac F. pose proof (loop_closed_form d Hac) as CF.
  assert (Len : length (fst (subst_fix SUBSTITUTE_LOOP_LIMIT (map fst d) (map snd d))) = length (map fst d)).
  { apply subst_fix_keeps; [intros v H; now rewrite map_length | now rewrite !map_length]. }
  rewrite F in CF, Len. destruct (CF eq_refl) as [Free Orig]. split.
  - now apply map_fst_combine_len.
  - intros y v x L Ho. apply lookup_In in L. split.
    + destruct (lookup x (combine (map fst d) vals)) as [w |] eqn:Lx; auto.
      rewrite (Free y v x w L Lx) in Ho. discriminate.
    + apply Orig. now exists y, v.
Qed.

Lemma converged (w conv : bool) : w = false -> w || negb conv = false -> conv = true.
Proof. intros -> H. now apply negb_false_iff in H. Qed.

Definition others (m : model) : list name :=
  states m ++ ders m ++ inputs m ++ map fst (params m) ++ map fst (consts m).
Definition decl (m : model) : list name := algs m ++ others m.
(* every symbol of the remaining equations and initial equations is a declared variable,
   parameter or constant, or `time` *)
Definition closed (tm : name) (m : model) : Prop :=
  forall e x, In e (eqs m ++ ieqs m) -> occurs x e = true -> In x (decl m) \/ x = tm.

Lemma in_decl x m : In x (decl m) <->
  In x (algs m) \/ In x (states m) \/ In x (ders m) \/ In x (inputs m)
  \/ In x (map fst (params m)) \/ In x (map fst (consts m)).
Proof. unfold decl, others. now rewrite !in_app_iff. Qed.

Lemma decl_sub (dom : list name) m m' :
  (forall x, In x (algs m) -> In x (algs m') \/ In x dom) ->
  (forall x, In x (states m) -> In x (states m') \/ In x dom) ->
  (forall x, In x (ders m) -> In x (ders m') \/ In x dom) ->
  (forall x, In x (inputs m) -> In x (inputs m') \/ In x dom) ->
  (forall x, In x (map fst (params m)) -> In x (map fst (params m')) \/ In x dom) ->
  (forall x, In x (map fst (consts m)) -> In x (map fst (consts m')) \/ In x dom) ->
  forall x, In x (decl m) -> In x (decl m') \/ In x dom.
Proof.
  intros Ha Hs Hd Hi Hp Hc x Hx. rewrite in_decl. apply in_decl in Hx.
  destruct Hx as [Hx | [Hx | [Hx | [Hx | [Hx | Hx]]]]];
    [apply Ha in Hx | apply Hs in Hx | apply Hd in Hx | apply Hi in Hx | apply Hp in Hx | apply Hc in Hx];
    destruct Hx as [Hx | Hx]; auto 7.
Qed.

Lemma closed_incl tm m m' :
  closed tm m -> incl (eqs m' ++ ieqs m') (eqs m ++ ieqs m) -> incl (decl m) (decl m') ->
  closed tm m'.
Proof.
  intros Hc He Hd e x Hin Ho.
  destruct (Hc e x (He e Hin) Ho) as [H | H]; [left; now apply Hd | now right].
Qed.

(* the shape the substituting passes share *)
Lemma closed_subst_drop tm s m m' :
  closed tm m ->
  (forall y v x, lookup y s = Some v -> occurs x v = true ->
                 lookup x s = None /\ (In x (decl m) \/ x = tm)) ->
  incl (eqs m' ++ ieqs m') (map (subst s) (eqs m ++ ieqs m)) ->
  (forall x, In x (decl m) -> In x (decl m') \/ In x (map fst s)) ->
  closed tm m'.
Proof.
  intros Hc Hs He Hd e x Hin.
  assert (Keep : forall z, In z (decl m) \/ z = tm -> lookup z s = None -> In z (decl m') \/ z = tm).
  { intros z [H | H] L; [| now right]. destruct (Hd z H) as [K | K]; [now left |].
    now apply lookup_none_notin in L. }
  apply (closed_subst (fun z => In z (decl m') \/ z = tm) s (eqs m ++ ieqs m)); [| | now apply He].
  - intros e0 z H0 Ho. apply Keep. exact (Hc e0 z H0 Ho).
  - intros y v z L Ho. destruct (Hs y v z L Ho) as [Lz H]. now apply Keep.
Qed.

Lemma closed_loop_pass tm (d s : sub) m m' :
  closed tm m -> closed_form_of d s ->
  (forall x, sym_in d x -> In x (decl m) \/ x = tm) ->
  incl (eqs m' ++ ieqs m') (map (subst s) (eqs m ++ ieqs m)) ->
  (forall x, In x (decl m) -> In x (decl m') \/ In x (map fst d)) ->
  closed tm m'.
Proof.
  intros Hc [Dom Vals] Hd He Hk.
  apply (closed_subst_drop tm s m); [exact Hc | | exact He | now rewrite Dom].
  intros y v x L Ho. destruct (Vals y v x L Ho) as [Lx Hx]. split; [exact Lx | now apply Hd].
Qed.

Lemma incl_subst_eqs s (kept es ies : list expr) :
  incl kept es -> incl (map (subst s) kept ++ map (subst s) ies) (map (subst s) (es ++ ies)).
Proof. intro H. rewrite <- map_app. apply incl_map, incl_app_app; [exact H | apply incl_refl]. Qed.

Lemma map_fst_subst_vals s l : map fst (subst_vals s l) = map fst l.
Proof. unfold subst_vals. rewrite map_map. apply map_ext. intros [a b]. reflexivity. Qed.

(* the eliminable pass: if the resolved values no longer mention an eliminated variable (the loop
   converged on an acyclic set of assignments), no remaining equation mentions one *)
Theorem eliminate_vars_gone mt m :
  let '(al, defs, kept, u) := elim_loop (states m) (algs m) (algs m) mt (eqs m) in
  let vars := map fst defs in
  let vals := fst (subst_fix SUBSTITUTE_LOOP_LIMIT vars (map snd defs)) in
  (forall v x, In v vals -> In x vars -> occurs x v = false) ->
  forall e x, In e (eqs (eliminate_vars mt m) ++ ieqs (eliminate_vars mt m)) ->
              u = false -> has_dup vars = false -> In x vars -> occurs x e = false.
Proof.
  unfold eliminate_vars.
  destruct (elim_loop (states m) (algs m) (algs m) mt (eqs m)) as [[[al defs] kept] u].
  cbv zeta. intros Hfree e x Hin Hu Hd Hx. subst u. rewrite Hd in Hin. cbn [orb] in Hin.
  destruct defs as [| d0 defs']; [destruct Hx |]. remember (d0 :: defs') as defs.
  assert (Hlen : length (fst (subst_fix SUBSTITUTE_LOOP_LIMIT (map fst defs) (map snd defs)))
                 = length (map fst defs)).
  { apply subst_fix_keeps; [intros v H; now rewrite map_length | now rewrite !map_length]. }
  destruct (subst_fix SUBSTITUTE_LOOP_LIMIT (map fst defs) (map snd defs)) as [vals conv].
  cbn [fst eqs ieqs] in *.
  destruct (occurs x e) eqn:Ho; [exfalso | reflexivity]. rewrite <- map_app in Hin.
  refine (closed_subst (fun y => ~ In y (map fst defs)) _ _ _ _ e x Hin Ho Hx).
  - intros _ y _ _ L. apply lookup_none_notin in L. now rewrite map_fst_combine_len in L.
  - intros y v z L Hv Hz. apply lookup_In, in_combine_r in L.
    rewrite (Hfree v z L Hz) in Hv. discriminate.
Qed.

Theorem closed_eliminate_vars_acyclic tm mt m :
  closed tm m -> acyclic (elim_defs mt m) -> failed (eliminate_vars mt m) = false ->
  warned m = false -> warned (eliminate_vars mt m) = false ->
  closed tm (eliminate_vars mt m).
Proof.
  unfold elim_defs, eliminate_vars. intros Hc.
  pose proof (elim_loop_shape (states m) (algs m) mt (eqs m) (algs m)) as S.
  destruct (elim_loop (states m) (algs m) (algs m) mt (eqs m)) as [[[al d] kept] u].
  intro Hac. destruct u; [simpl; congruence |]. cbn [orb].
  destruct (has_dup (map fst d)); [simpl; congruence |].
  destruct (S eq_refl) as [-> [I1 [_ [_ I3]]]].
  destruct d as [| d0 d'] eqn:Ed; [| rewrite <- Ed in *; clear Ed].
  - intros _ _ _. apply (closed_incl tm m); [exact Hc | apply incl_app_app; [exact I1 | apply incl_refl] |].
    unfold decl. cbn [algs map]. rewrite filter_notin_nil. apply incl_refl.
  - destruct (subst_fix SUBSTITUTE_LOOP_LIMIT (map fst d) (map snd d)) as [vals conv] eqn:F.
    intros _ Hw0 Hw. cbn [warned] in Hw. apply (converged _ _ Hw0) in Hw. subst conv.
    apply (closed_loop_pass tm d _ m _ Hc (loop_values d vals Hac F)); [| now apply incl_subst_eqs |].
    + (* the symbols of the definitions are symbols of the equations they were extracted from *)
      intros x [y [v [Hin Ho]]]. destruct (I3 y v x Hin Ho) as [e [He Hoe]].
      apply (Hc e x); [| exact Hoe]. apply in_or_app. now left.
    + apply decl_sub; cbn [algs states ders inputs params consts]; auto using keep_or_gone.
Qed.

Theorem closed_elim_const_assignments tm m : closed tm m -> closed tm (elim_const_assignments m).
Proof.
  unfold elim_const_assignments. intro Hc.
  pose proof (eca_loop_shape (eqs m) (algs m)) as S.
  destruct (eca_loop (algs m) (eqs m)) as [[al cs] kept]. destruct S as [-> [I1 _]].
  set (m' := Model _ _ _ _ _ _ _ _ _ _ _ _).
  assert (Hcs : forall x, In x (map fst (consts m)) \/ In x (map fst cs) -> In x (map fst (consts m'))).
  { intros x Hx. unfold m'. cbn [consts]. rewrite map_app. now apply in_or_app. }
  apply (closed_incl tm m); [exact Hc | apply incl_app_app; [exact I1 | apply incl_refl] |].
  (* a variable that is no longer algebraic has become a constant *)
  intros x Hx.
  destruct (decl_sub (map fst cs) m m' (keep_or_gone (map fst cs) (algs m))) with (x := x) as [K | K]; auto.
  apply in_decl. do 5 right. apply Hcs. now right.
Qed.

Lemma parts_names l u d : parts l u d ->
  (forall x, In x (map fst l) -> In x (map fst u) \/ In x (map fst d))
  /\ (forall y v, In (y, v) d -> In (y, Some v) l).
Proof.
  induction 1 as [| x v l u d _ [IH1 IH2] | x e l u d _ [IH1 IH2]]; cbn [map fst].
  - split; [intros x [] | intros y v []].
  - split; [intros z [-> | Hz]; [left; now left | destruct (IH1 z Hz); [left; now right | now right]] |].
    intros y w H. right. now apply IH2.
  - split; [intros z [-> | Hz]; [right; now left | destruct (IH1 z Hz); [now left | right; now right]] |].
    intros y w [H | H]; [inversion H; now left | right; now apply IH2].
Qed.

Lemma split_valued_numbers : forall l y v x, In (y, v) (snd (split_valued l)) -> occurs x v = false.
Proof.
  induction l as [| [y0 v0] l IH]; cbn [split_valued]; [intros y v x [] |].
  destruct (split_valued l) as [u d]. cbn [snd] in IH.
  destruct v0 as [[z | q | o a | o a b] |]; cbn [snd]; try exact IH.
  intros y v x [H | H]; [now inversion H | eapply IH; eauto].
Qed.

Theorem closed_replace_param_values tm m : closed tm m -> closed tm (replace_param_values m).
Proof.
  unfold replace_param_values. intro Hc.
  pose proof (parts_names _ _ _ (split_valued_parts (params m))) as [P1 _].
  pose proof (split_valued_numbers (params m)) as P2.
  destruct (split_valued (params m)) as [unspec s]. cbn [fst snd] in P1, P2.
  apply (closed_subst_drop tm s m); [exact Hc | | now apply incl_subst_eqs, incl_refl |].
  - intros y v x L Ho. apply lookup_In in L. rewrite (P2 y v x L) in Ho. discriminate.
  - apply decl_sub; cbn [algs states ders inputs params consts]; rewrite ?map_fst_subst_vals; auto.
Qed.

(* the VALUES of parameters and constants only mention declared symbols *)
Definition vals_closed (tm : name) (m : model) : Prop :=
  forall y v x, In (y, Some v) (params m ++ consts m) -> occurs x v = true -> In x (decl m) \/ x = tm.

Fixpoint syms (e : expr) : list name :=
  match e with
  | Sym x => [x]
  | Const _ => []
  | Un _ a => syms a
  | Bin _ a b => syms a ++ syms b
  end.
Lemma occurs_syms x e : occurs x e = true -> In x (syms e).
Proof.
  induction e as [y | q | o a IH | o a IHa b IHb]; simpl; try discriminate.
  - intro H. apply Pos.eqb_eq in H. now left.
  - exact IH.
  - intro H. apply orb_true_iff in H. apply in_or_app. destruct H; [left; auto | right; auto].
Qed.

(* every symbol of every parameter / constant value is a declared symbol of the model *)
Definition vals_closedb (m : model) : bool :=
  forallb (fun p => match snd p with
                    | Some e => forallb (fun x => mem x (decl m)) (syms e)
                    | None => true
                    end) (params m ++ consts m).

Theorem vals_closedb_sound tm m : vals_closedb m = true -> vals_closed tm m.
Proof.
  unfold vals_closedb, vals_closed. intros H y v x Hin Ho. left.
  rewrite forallb_forall in H. specialize (H (y, Some v) Hin). simpl in H.
  rewrite forallb_forall in H. apply mem_In. apply H. now apply occurs_syms.
Qed.

Theorem closed_replace_exprs tm b m :
  closed tm m -> vals_closed tm m -> acyclic (expr_defs b m) ->
  warned m = false -> warned (replace_exprs b m) = false ->
  closed tm (replace_exprs b m).
Proof.
  unfold expr_defs, replace_exprs. intros Hc Hv.
  pose proof (parts_names _ _ _ (split_simple_parts (if b then params m else consts m))) as [P1 P2].
  destruct (split_simple (if b then params m else consts m)) as [simple d]. cbn [fst snd] in *.
  intro Hac. destruct d as [| d0 d'].
  - intros _ _. apply (closed_incl tm m); [exact Hc | destruct b; apply incl_refl |].
    intros x Hx. destruct b; set (m' := Model _ _ _ _ _ _ _ _ _ _ _ _);
      destruct (decl_sub [] m m') with (x := x) as [K | []]; auto.
  - remember (d0 :: d') as d.
    destruct (subst_fix SUBSTITUTE_LOOP_LIMIT (map fst d) (map snd d)) as [vals conv] eqn:F.
    intros Hw0 Hw. cbn [warned] in Hw. apply (converged _ _ Hw0) in Hw. subst conv.
    apply (closed_loop_pass tm d _ m _ Hc (loop_values d vals Hac F));
      [| now apply incl_subst_eqs, incl_refl |].
    + intros x [y0 [v0 [Hd0 Ho0]]].
      apply (Hv y0 v0 x); [| exact Ho0]. apply in_or_app. destruct b; [left | right]; now apply P2.
    + destruct b; apply decl_sub; cbn [algs states ders inputs params consts];
        rewrite ?map_fst_subst_vals; auto.
Qed.

(* resolve_defs: the loop, or nothing to resolve because every value is a number *)
Lemma resolve_defs_values (d s : sub) : acyclic d -> resolve_defs d = (s, true) -> closed_form_of d s.
Proof.
  intro Hac. unfold resolve_defs.
  destruct (existsb (fun '(_, e) => negb (is_const e)) d) eqn:Nc.
  - destruct (subst_fix SUBSTITUTE_LOOP_LIMIT (map fst d) (map snd d)) as [vals cv] eqn:F.
    intro H. inversion H. subst s cv. exact (loop_values d vals Hac F).
  - intro H. inversion H. subst s. split; [reflexivity |].
    intros y v x L Ho. apply lookup_In, (existsb_false_in _ _ _ Nc) in L. destruct v; discriminate.
Qed.

Theorem closed_replace_const_values tm m :
  closed tm m -> vals_closed tm m -> acyclic (const_defs m) ->
  failed (replace_const_values m) = false -> warned m = false ->
  warned (replace_const_values m) = false ->
  closed tm (replace_const_values m).
Proof.
  unfold replace_const_values, const_defs. intros Hc Hv Hac.
  set (d := flat_map (fun '(x, v) => match v with Some e => [(x, e)] | None => [] end) (consts m)) in *.
  destruct (resolve_defs d) as [s conv] eqn:R.
  destruct (existsb (fun '(_, v) => match v with None => true | _ => false end) (consts m)) eqn:Ex;
    [simpl; congruence |].
  destruct (parts_names _ _ _ (consts_parts (consts m) Ex)) as [D1 D2]. fold d in D1, D2.
  intros _ Hw0 Hw. cbn [warned] in Hw. apply (converged _ _ Hw0) in Hw. subst conv.
  apply (closed_loop_pass tm d s m _ Hc (resolve_defs_values d s Hac R));
    [| now apply incl_subst_eqs, incl_refl |].
  - intros x [y0 [v0 [Hd0 Ho0]]]. apply (Hv y0 v0 x); [| exact Ho0]. apply in_or_app. right. now apply D2.
  - apply decl_sub; cbn [algs states ders inputs params consts]; rewrite ?map_fst_subst_vals; auto.
Qed.

Lemma in_app_swap {A} (x : A) a b c : In x (a ++ b ++ c) -> In x (b ++ a ++ c).
Proof. rewrite !in_app_iff. tauto. Qed.
Lemma declared_decl m x : declared (algs m) (dne_of m) x -> In x (decl m).
Proof.
  intros [H | H]; apply mem_In in H; apply in_or_app; [now left | right; now apply in_app_swap].
Qed.

(* closedness needs the invariant of the relation only; da_nored, which the count needs, is no
   hypothesis *)
Theorem closed_detect_aliases tm ad m :
  closed tm m -> relinv (dne_of m) (arel m) -> da_decl (pc_of m) (algs m) (dne_of m) (eqs m) ->
  failed (detect_aliases ad m) = false ->
  closed tm (detect_aliases ad m).
Proof.
  intros Hc Inv Hd Hf.
  destruct (da_loop ad (algs m) (ders m) (dne_of m) (pc_of m) (arel m) (eqs m)) as [R kept] eqn:E.
  destruct (da_loop_struct _ _ _ _ _ _ _ _ _ Inv Hd E) as [Kin [Inv' _]].
  destruct (detect_aliases_eq ad m R kept E Inv' Hf) as [-> [_ Decl]].
  apply (closed_subst_drop tm (da_sub (arel m) R) m);
    [exact Hc | | now apply incl_subst_eqs |].
  - (* a value is +- a canonical variable, which is declared and, by the invariant, not a member *)
    intros y v x L Ho. apply lookup_In, in_flat_map in L. destruct L as [cl [Hcl L]].
    apply in_map_iff in L. destruct L as [[a n] [Ea _]]. inversion Ea. subst y v.
    assert (x = fst cl) by (destruct n; apply Pos.eqb_eq in Ho; exact Ho). subst x.
    assert (Hcn : In (fst cl) (cnames R)) by now apply in_map.
    split; [| left; now apply declared_decl, Decl].
    destruct (lookup (fst cl) (da_sub (arel m) R)) eqn:Lc; [exfalso | reflexivity].
    apply lookup_some_in in Lc. rewrite map_fst_da_sub in Lc. apply filter_In in Lc.
    destruct Inv' as [_ [I2 _]]. now apply (I2 _ Hcn).
  - apply decl_sub; cbn [algs states ders inputs params consts]; auto using keep_or_gone.
Qed.

(* the hypotheses of the closedness composition, each on the model that reaches its pass; they are
   listed at C15_closed_simplify_once_partial *)
Definition H_cl_assumed (tm : name) (f : model -> model) (m : model) : Prop := closed tm (f m).
Definition H_cl_elim (o : options) (m : model) : Prop :=
  match o_elim o with
  | Some ns => no_elim_state ns m = true /\ acyclic (elim_defs ns m) /\ warned m = false
               /\ warned (eliminate_vars ns m) = false
  | None => True
  end.

Definition H_cl_exprs (tm : name) (b : bool) (m : model) : Prop :=
  vals_closed tm m /\ acyclic (expr_defs b m) /\ warned m = false /\ warned (replace_exprs b m) = false.

Definition H_cl_rcv (tm : name) (m : model) : Prop :=
  vals_closed tm m /\ acyclic (const_defs m) /\ warned m = false /\ warned (replace_const_values m) = false.

Definition passes_cl (tm : name) (o : options) : list pass :=
  [ (o_rpe o, replace_exprs true, H_cl_exprs tm true);
    (o_rce o, replace_exprs false, H_cl_exprs tm false);
    (o_eca o, elim_const_assignments, fun _ => True);          (* proved *)
    (o_rpv o, replace_param_values, fun _ => True);            (* proved *)
    (o_rcv o, replace_const_values, H_cl_rcv tm);                (* proved from the carve-out *)
    (elim_on o, elim_f o, H_cl_elim o);
    (o_da o, detect_aliases (o_allow_der o), H_da15 o) ].      (* proved from the alias invariant *)

Lemma passes_cl_closed tm o : Forall (pass_keeps (closed tm)) (passes_cl tm o).
Proof.
  unfold passes_cl. repeat apply Forall_cons; [| | | | | | | apply Forall_nil].
  - intros m [Hv [Hac [Hw Hw']]] Hc _ _. now apply closed_replace_exprs.
  - intros m [Hv [Hac [Hw Hw']]] Hc _ _. now apply closed_replace_exprs.
  - intros m _ Hc _ _. now apply closed_elim_const_assignments.
  - intros m _ Hc _ _. now apply closed_replace_param_values.
  - intros m [Hv [Hac [Hw Hw']]] Hc _ Hf. now apply closed_replace_const_values.
  - intros m H0 Hc Hf Hf'. unfold elim_f, H_cl_elim in *. destruct (o_elim o) as [ns |]; [| exact Hc].
    destruct H0 as [Hn [Hac [Hw Hw']]]. rewrite Hn in *.
    destruct (o_expand_mx o); [| simpl in Hf'; discriminate].
    now apply closed_eliminate_vars_acyclic.
  - intros m [Inv [Hd _]] Hc _ Hf. now apply closed_detect_aliases.
Qed.

Theorem simplify_once_closed_partial tm o m :
  run_ok (passes_cl tm o) m -> closed tm m -> failed (simplify_once o m) = false ->
  closed tm (simplify_once o m).
Proof.
  (* `run` does not look at the hypotheses of a pass list *)
  rewrite (simplify_once_run o m : _ = run (passes_cl tm o) m). apply run_keeps, passes_cl_closed.
Qed.
