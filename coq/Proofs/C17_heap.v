(* C17 — the heap-level model (Model/C17_heap.v: shared mutable set objects, in-place |=, per-key
   copies in copy()) refines the value-level model in lock-step, for every legal history of
   add / remove / copy.  Invariant hinv: content agreement, no set object reachable from two
   relations, every allocated location below `next`.  Set objects are told apart by their contents. *)
From stdpp Require Import gmap.
From PV Require Import Lib.Closure Model.C17_alias Model.C17_heap
  Proofs.C17_alias Proofs.C17_canon Proofs.C17_remove.

Definition bounded (h : heapT) (n : loc) : Prop := ∀ l : loc, is_Some (h !! l) → (l < n)%positive.
Definition pbelow (p : pmapT) (n : loc) : Prop := ∀ (k : svar) (l : loc), p !! k = Some l → (l < n)%positive.

Definition agree (h : heapT) (p : pmapT) (C : svar → gset svar) : Prop :=
  (∀ (k : svar) (l : loc), p !! k = Some l → h !! l = Some (C k)) ∧
  (∀ k : svar, p !! k = None → C k = {[k]}).

Definition local_ok (h : heapT) (hr : hrel) (r : rel) : Prop :=
  agree h (ptr hr) (cls (al r)) ∧ hcm hr = cm r ∧ hcv hr = cv r.

(* what an operation on the relation with pointers po does, seen from (h, n): it allocates
   upwards, writes only cells reachable through po, and points only to such cells or fresh ones *)
Definition op_effect (h : heapT) (n : loc) (po : pmapT) (h' : heapT) (n' : loc) (hr' : hrel) (r' : rel) : Prop :=
  (n ≤ n')%positive ∧ bounded h' n' ∧ local_ok h' hr' r' ∧
  (∀ l : loc, (l < n)%positive → (∀ k : svar, po !! k ≠ Some l) → h' !! l = h !! l) ∧
  (∀ (k : svar) (l : loc), ptr hr' !! k = Some l → (∃ k' : svar, po !! k' = Some l) ∨ (n ≤ l)%positive).

Lemma hcls_agree (h : heapT) (p : pmapT) (C : svar → gset svar) (k : svar) :
  agree h p C → hcls_at h p k = C k.
Proof.
  intros [H1 H2]. unfold hcls_at. destruct (p !! k) as [l|] eqn:E.
  - by rewrite (H1 _ _ E).
  - symmetry. by apply H2.
Qed.

Lemma agree_sharers (h : heapT) (p : pmapT) (C : svar → gset svar) (k1 k2 : svar) (l : loc) :
  agree h p C → k2 ∈ C k2 → p !! k1 = Some l → p !! k2 = Some l → k2 ∈ C k1.
Proof. intros [H _] Hk2 H1%H H2%H. rewrite H1 in H2. by injection H2 as ->. Qed.

Lemma agree_pbelow (h : heapT) (n : loc) (p : pmapT) (C : svar → gset svar) :
  bounded h n → agree h p C → pbelow p n.
Proof. intros Hb [H1 _] k l Hk. apply Hb. rewrite (H1 _ _ Hk). eauto. Qed.

Lemma bounded_insert (h : heapT) (n : loc) (l : loc) (S : gset svar) :
  bounded h n → (l < n)%positive → bounded (<[l := S]> h) n.
Proof.
  intros Hb Hl l0 Hl0. destruct (decide (l0 = l)) as [->|Hne]; [done|].
  rewrite lookup_insert_ne in Hl0 by done. by apply Hb.
Qed.

Lemma bounded_alloc (h : heapT) (n : loc) (S : gset svar) : bounded h n → bounded (<[n := S]> h) (n + 1).
Proof.
  intros Hb l Hl. destruct (decide (l = n)) as [->|Hne]; [lia|].
  rewrite lookup_insert_ne in Hl by done. specialize (Hb _ Hl). lia.
Qed.

Lemma hget_insert_ne (h : heapT) (l l' : loc) (S : gset svar) : l ≠ l' → hget (<[l := S]> h) l' = hget h l'.
Proof. intros Hne. unfold hget. by rewrite lookup_insert_ne. Qed.

Lemma cell_ne (h : heapT) (l1 l2 : loc) (S1 S2 : gset svar) (x : svar) :
  h !! l1 = Some S1 → h !! l2 = Some S2 → x ∈ S1 → x ∉ S2 → l1 ≠ l2.
Proof. intros H1 H2 Hx Hnx ->. rewrite H1 in H2. by injection H2 as ->. Qed.

Lemma hget_Some (h : heapT) (l : loc) (S : gset svar) : h !! l = Some S → hget h l = S.
Proof. intros H. unfold hget. by rewrite H. Qed.

Lemma frame_Some (h h' : heapT) (n : loc) (l : loc) (S : gset svar) :
  bounded h n → (∀ l0 : loc, (l0 < n)%positive → h' !! l0 = h !! l0) → h !! l = Some S → h' !! l = Some S.
Proof. intros Hb Hf Hl. rewrite Hf; [done|]. apply Hb. by rewrite Hl. Qed.

Lemma agree_frame (h h' : heapT) (n : loc) (p : pmapT) (C : svar → gset svar) :
  bounded h n → (∀ l0 : loc, (l0 < n)%positive → h' !! l0 = h !! l0) → agree h p C → agree h' p C.
Proof. intros Hb Hf [G1 G2]. split; [|done]. intros k l Hk. by apply (frame_Some h h' n), G1. Qed.

Lemma haliases_read (h : heapT) (n : loc) (p : pmapT) (C : svar → gset svar)
    (a : svar) (l : loc) (h' : heapT) (n' : loc) :
  haliases h n p a = (l, h', n') → bounded h n → agree h p C →
  (n ≤ n')%positive ∧ bounded h' n' ∧
  (∀ l0 : loc, (l0 < n)%positive → h' !! l0 = h !! l0) ∧
  agree h' p C ∧ h' !! l = Some (C a) ∧ (p !! a = Some l ∨ (n ≤ l)%positive).
Proof.
  intros E Hb Hag. unfold haliases in E.
  destruct (p !! a) as [l1|] eqn:Ea; injection E as <- <- <-.
  - split; [lia|]. do 3 (split; [done|]). split; [by apply Hag|by left].
  - assert (Hf : ∀ l0 : loc, (l0 < n)%positive → <[n := {[a]}]> h !! l0 = h !! l0).
    { intros l0 Hl0. apply lookup_insert_ne. lia. }
    split; [lia|]. split; [by apply bounded_alloc|]. split; [done|]. split; [by eapply agree_frame|].
    split; [|right; lia]. by rewrite lookup_insert, (proj2 Hag a Ea).
Qed.

Lemma haliases_insert (h : heapT) (n : loc) (q : pmapT) (a : svar) (l0 : loc) (S : gset svar) :
  (l0 < n)%positive →
  haliases (<[l0 := S]> h) n q a = let '(l, h', n') := haliases h n q a in (l, <[l0 := S]> h', n').
Proof. intros Hl. unfold haliases. destruct (q !! a); [done|]. rewrite insert_commute by lia. done. Qed.

(* The classes of a and of its negation differ (Hne); a key outside the merged class and its
   mirror points to an object that holds neither (Hla, Hlia read contrapositively). *)
Lemma add_local_ok (h : heapT) (p : pmapT) (m : amap) (a b : svar) (la lia : loc) :
  inv m → sym m → consistent m → tog b ∉ cls m a →
  agree h p (cls m) →
  h !! la = Some (cls m a) → h !! lia = Some (cls m (tog a)) →
  let A' := cls m a ∪ cls m b in
  let IA' := cls m (tog a) ∪ cls m (tog b) in
  let p' := set_fold (fun v (acc : pmapT) => <[v := la]> (<[tog v := lia]> acc)) p A' in
  agree (<[lia := IA']> (<[la := A']> h)) p' (cls (add_al m a b)).
Proof.
  intros Hi Hs Hc Hleg Hag Ha Hta A' IA' p'.
  assert (Hp' : ∀ k : svar, p' !! k =
            if decide (k ∈ A') then Some la else if decide (tog k ∈ A') then Some lia else p !! k).
  { intros k. by apply repoint_lookup, merged_disjoint. }
  pose proof (cell_ne h lia la _ _ (tog a) Hta Ha (proj1 Hi _) (Hc a)) as Hne.
  assert (Hla : ∀ k : svar, p !! k = Some la → k ∈ A').
  { intros k Hk%Hag. rewrite Ha in Hk. injection Hk as Heq. apply elem_of_union_l. rewrite Heq. apply Hi. }
  assert (Hlia : ∀ k : svar, p !! k = Some lia → tog k ∈ A').
  { intros k Hk%Hag. rewrite Hta in Hk. injection Hk as Heq.
    apply elem_of_union_l, (proj1 (sym_mem m Hs a k)). rewrite Heq. apply Hi. }
  clearbody p'. split.
  - intros k l. rewrite Hp', cls_add_al by done. fold A' IA'.
    case_decide as Hk.
    { intros [= <-]. by rewrite lookup_insert_ne, lookup_insert. }
    case_decide as Htk.
    { intros [= <-]. by rewrite lookup_insert. }
    intros Hpk. rewrite !lookup_insert_ne; [by apply Hag| |]; intros ->; auto.
  - intros k. rewrite Hp', cls_add_al by done. fold A' IA'.
    case_decide; [done|]. case_decide; [done|]. apply (proj2 Hag).
Qed.

Lemma hadd_spec (h : heapT) (n : loc) (hr : hrel) (r : rel) (a b : svar)
    (h' : heapT) (n' : loc) (hr' : hrel) :
  bounded h n → local_ok h hr r → al_ok r → tog b ∉ cls (al r) a →
  hadd h n hr a b = (h', n', hr') → op_effect h n (ptr hr) h' n' hr' (add r a b).
Proof.
  intros Hb (Hag & Hcm & Hcv) Hal Hleg.
  pose proof Hal as (Hi & Hs & Hcons).
  set (C := cls (al r)) in *.
  assert (Hrefl : ∀ k : svar, k ∈ C k) by apply Hi.
  (* run the statements first; what they did is then read off the equations *)
  unfold hadd. set (q := ptr hr) in *.
  destruct (haliases h n q a) as [[la h1] n1] eqn:E1.
  destruct (decide (b ∈ hget h1 la)) as [Hbm|Hbm].
  { intros [= <- <- <-].
    destruct (haliases_read _ _ _ C _ _ _ _ E1 Hb Hag) as (_ & _ & _ & _ & Hc1 & _).
    rewrite (hget_Some _ _ _ Hc1) in Hbm. rewrite add_same by done.
    split; [lia|]. do 3 (split; [done|]). intros k l Hk. left. eauto. }
  destruct (haliases h1 n1 q (tog a)) as [[lia h2] n2] eqn:E2.
  destruct (haliases h2 n2 q b) as [[lb h3] n3] eqn:E3.
  destruct (haliases _ n3 q (tog b)) as [[lnb h5] n5] eqn:E5.
  destruct (canon (hcm hr) a) as [ca sa] eqn:Ea. destruct (canon (hcm hr) b) as [cb sb] eqn:Eb.
  intros [= <- <- <-].
  set (h6 := <[lia := _]> h5). set (A6 := hget h6 la). set (hr' := HRel _ _ _).
  rewrite Hcm in Ea, Eb.
  destruct (haliases_read _ _ _ C _ _ _ _ E1 Hb Hag) as (Hn1 & Hb1 & Hf1 & Hag1 & Hc1 & Hd1).
  rewrite (hget_Some _ _ _ Hc1) in Hbm.
  destruct (haliases_read _ _ _ C _ _ _ _ E2 Hb1 Hag1) as (Hn2 & Hb2 & Hf2 & Hag2 & Hc2 & Hd2).
  destruct (haliases_read _ _ _ C _ _ _ _ E3 Hb2 Hag2) as (Hn3 & Hb3 & Hf3 & Hag3 & Hc3 & _).
  pose proof (frame_Some _ _ _ _ _ Hb2 Hf3 (frame_Some _ _ _ _ _ Hb1 Hf2 Hc1)) as H3la.
  rewrite (hget_Some _ _ _ H3la), (hget_Some _ _ _ Hc3) in E5.
  set (A' := C a ∪ C b) in E5.
  (* the last call reads the heap after the write of line 22; the write goes to an old cell, so
     the call can be taken first *)
  rewrite haliases_insert in E5 by (apply Hb3; rewrite H3la; eauto).
  destruct (haliases h3 n3 q (tog b)) as [[lnb' h5'] n5'] eqn:E5'. injection E5 as -> <- ->.
  destruct (haliases_read _ _ _ C _ _ _ _ E5' Hb3 Hag3) as (Hn5 & Hb5 & Hf5 & Hag5 & Hc5 & _).
  pose proof (frame_Some _ _ _ _ _ Hb3 Hf5 H3la) as H5la.
  pose proof (frame_Some _ _ _ _ _ Hb3 Hf5 (frame_Some _ _ _ _ _ Hb2 Hf3 Hc2)) as H5lia.
  pose proof (cell_ne h5' lia la _ _ (tog a) H5lia H5la (Hrefl _) (Hcons a)) as Hne.
  pose proof (cell_ne h5' lnb la _ _ (tog b) Hc5 H5la (Hrefl _) Hleg) as Hnb.
  assert (H6 : h6 = <[lia := C (tog a) ∪ C (tog b)]> (<[la := A']> h5')).
  { unfold h6. rewrite !hget_insert_ne by done. by rewrite (hget_Some _ _ _ H5lia), (hget_Some _ _ _ Hc5). }
  assert (HA6 : A6 = A') by (unfold A6; rewrite H6, hget_insert_ne by done; apply hget_Some, lookup_insert).
  subst hr'. rewrite HA6, H6, Hcm, Hcv. clear h6 A6 H6 HA6.
  set (IA' := C (tog a) ∪ C (tog b)).
  pose proof (merged_disjoint _ Hi Hs Hcons a b Hleg) as Hdisj. fold C A' in Hdisj.
  split; [lia|]. split; [|split; [|split]].
  - apply bounded_insert; [apply bounded_insert; [done|]|]; apply Hb5; [rewrite H5la|rewrite H5lia]; eauto.
  - unfold local_ok. cbn [ptr hcm hcv]. rewrite add_unfold by done. cbn [al cm cv].
    split; [|split].
    + by apply (add_local_ok h5' q _ a b la lia).
    + rewrite Ea, cls_add_al, decide_True by (done || apply elem_of_union_l, Hrefl). done.
    + by rewrite Ea, Eb.
  - intros l Hl Hnp. rewrite !lookup_insert_ne.
    + rewrite Hf5, Hf3, Hf2, Hf1 by lia. done.
    + intros ->. destruct Hd1 as [Hpa|Hge]; [by apply (Hnp a)|lia].
    + intros ->. destruct Hd2 as [Hpa|Hge]; [by apply (Hnp (tog a))|lia].
  - intros k l. cbn [ptr]. rewrite repoint_lookup by done.
    case_decide; [|case_decide].
    + intros [= <-]. destruct Hd1; [left; eauto|right; lia].
    + intros [= <-]. destruct Hd2; [left; eauto|right; lia].
    + intros Hk. left. eauto.
Qed.

Lemma hremove_spec (h : heapT) (n : loc) (hr : hrel) (r : rel) (a : svar) :
  bounded h n → local_ok h hr r → op_effect h n (ptr hr) h n (hremove h hr a) (remove r a).
Proof.
  intros Hb Hok. pose proof Hok as (Hag & Hcm & Hcv).
  split; [lia|]. split; [done|]. split; [|split; [done|]].
  - destruct a as [[] p]; [done|].
    unfold hremove. cbn [fst snd]. rewrite Hcv.
    destruct (decide (p ∈ cv r)) as [Hp|Hp]; [|by rewrite remove_noop_notcanon].
    rewrite !(hcls_agree h (ptr hr) (cls (al r))) by done.
    fold (removed_set r (false, p)). set (R := removed_set r (false, p)).
    split; [|split]; cbn [ptr hcm hcv].
    + split.
      * intros k l. rewrite del_fold_lookup, cls_remove by done. fold R.
        case_decide; [done|]. apply (proj1 Hag).
      * intros k. rewrite del_fold_lookup, cls_remove by done. fold R.
        case_decide; [done|]. apply (proj2 Hag).
    + rewrite remove_unfold by done. cbn [cm]. fold R. by rewrite Hcm.
    + rewrite remove_unfold by done. done.
  - intros k l. destruct a as [[] p]; [eauto|]. unfold hremove. cbn [fst snd].
    case_decide; [|eauto]. cbn [ptr]. rewrite del_fold_lookup. case_decide; [done|eauto].
Qed.

Definition copied (h : heapT) (n : loc) (p : pmapT) (h' : heapT) (n' : loc) (p' : pmapT) : Prop :=
  (n ≤ n')%positive ∧ bounded h' n' ∧
  (∀ l0 : loc, (l0 < n)%positive → h' !! l0 = h !! l0) ∧
  (∀ k : svar, p' !! k = None ↔ p !! k = None) ∧
  (∀ (k : svar) (l' : loc), p' !! k = Some l' →
     (n ≤ l')%positive ∧ (l' < n')%positive ∧ ∃ l : loc, p !! k = Some l ∧ h' !! l' = Some (hget h l)) ∧
  (∀ (k1 k2 : svar) (l' : loc), p' !! k1 = Some l' → p' !! k2 = Some l' → k1 = k2).

Lemma hcopy_spec (h : heapT) (n : loc) (p : pmapT) (h' : heapT) (n' : loc) (p' : pmapT) :
  bounded h n → pbelow p n → hcopy h n p = (h', n', p') → copied h n p h' n' p'.
Proof.
  intros Hb Hp. unfold hcopy. revert h' n' p'.
  (* the invariant of the fold is `copied` for the part of p folded so far; pbelow is threaded to
     get x < n ≤ n1 at each step *)
  pose (P := fun (acc : heapT * loc * pmapT) (m : pmapT) =>
    pbelow m n → ∀ (h' : heapT) (n' : loc) (p' : pmapT), acc = (h', n', p') → copied h n m h' n' p').
  intros h' n' p' E.
  refine (map_fold_ind P _ (h, n, ∅) _ _ p Hp h' n' p' E); unfold P, copied; clear P E h' n' p'.
  - intros _ h' n' p' [= <- <- <-]. split; [lia|]. split; [done|]. split; [done|].
    split; [intros k; by rewrite !lookup_empty|]. split; intros *; by rewrite lookup_empty.
  - intros i x m [[h1 n1] p1] Hmi IH Hpm h' n' p' [= <- <- <-].
    assert (pbelow m n) as Hpm'.
    { intros k l Hk. apply (Hpm k l). rewrite lookup_insert_ne; [done|]. intros ->. by rewrite Hmi in Hk. }
    destruct (IH Hpm' h1 n1 p1 eq_refl) as (I1 & I2 & I3 & I4 & I5 & I6).
    assert (Hx : (x < n)%positive) by (apply (Hpm i x); by rewrite lookup_insert).
    split; [lia|]. split; [by apply bounded_alloc|]. split; [|split; [|split]].
    + intros l0 Hl0. rewrite lookup_insert_ne by lia. by apply I3.
    + intros k. rewrite !lookup_insert_None. by rewrite I4.
    + intros k l' [[<- <-]|[Hne Hk]]%lookup_insert_Some.
      * split; [done|]. split; [lia|].
        exists x. split; [apply lookup_insert|]. rewrite lookup_insert. f_equal. unfold hget. by rewrite I3.
      * destruct (I5 _ _ Hk) as (J1 & J2 & l & J3 & J4).
        split; [done|]. split; [lia|]. exists l. split; [by rewrite lookup_insert_ne|].
        rewrite lookup_insert_ne by lia. done.
    + intros k1 k2 l' [[<- <-]|[Hn1 H1]]%lookup_insert_Some [[<- E2]|[Hn2 H2]]%lookup_insert_Some;
        [done| | |by apply (I6 k1 k2 l')].
      * destruct (I5 _ _ H2) as (_ & J2 & _). lia.
      * destruct (I5 _ _ H1) as (_ & J2 & _). lia.
Qed.

Lemma copied_agree (h : heapT) (n : loc) (p : pmapT) (h' : heapT) (n' : loc) (p' : pmapT) (C : svar → gset svar) :
  copied h n p h' n' p' → agree h p C → agree h' p' C.
Proof.
  intros (_ & _ & _ & S4 & S5 & _) [G1 G2]. split.
  - intros k l' Hk. destruct (S5 _ _ Hk) as (_ & _ & l & J3 & J4). by rewrite J4, (hget_Some h l (C k)) by auto.
  - intros k Hk. by apply G2, S4.
Qed.

Definition owned (hs : list hrel) : Prop :=
  ∀ (i j : nat) (h1 h2 : hrel) (k1 k2 : svar) (l : loc),
    hs !! i = Some h1 → hs !! j = Some h2 → ptr h1 !! k1 = Some l → ptr h2 !! k2 = Some l → i = j.

Definition hinv (w : world) (rs : list rel) : Prop :=
  length (rels w) = length rs ∧ bounded (heap w) (next w) ∧ owned (rels w) ∧
  ∀ (i : nat) (hr : hrel) (r : rel), rels w !! i = Some hr → rs !! i = Some r → local_ok (heap w) hr r.

Lemma local_ok_frame (h h' : heapT) (hr : hrel) (r : rel) :
  local_ok h hr r → (∀ (k : svar) (l : loc), ptr hr !! k = Some l → h' !! l = h !! l) → local_ok h' hr r.
Proof.
  intros ((G1 & G2) & Hrest) Hf. split; [|done]. split; [|done].
  intros k l Hk. rewrite (Hf k l Hk). by apply G1.
Qed.

Lemma hinv_lookup w rs i hr : hinv w rs → rels w !! i = Some hr →
  ∃ r : rel, rs !! i = Some r ∧ local_ok (heap w) hr r.
Proof.
  intros (Hlen & _ & _ & Hloc) Hi.
  destruct (lookup_lt_is_Some_2 rs i) as [r Hr]; [rewrite <- Hlen; by eapply lookup_lt_Some|].
  exists r. split; [done|]. by apply (Hloc i).
Qed.

Lemma hinv_lookup_None w rs i : hinv w rs → rels w !! i = None → rs !! i = None.
Proof. intros (Hlen & _) Hi. apply lookup_ge_None. rewrite <- Hlen. by apply lookup_ge_None. Qed.

Lemma hinv_pbelow w rs i hr : hinv w rs → rels w !! i = Some hr → pbelow (ptr hr) (next w).
Proof.
  intros Hinv Hi. destruct (hinv_lookup w rs i hr Hinv Hi) as (r & _ & Hag & _).
  eapply agree_pbelow; [apply Hinv|done].
Qed.

Definition put_at {A} (l l' : list A) (i : nat) (x : A) : Prop :=
  (∀ j : nat, j ≠ i → l' !! j = l !! j) ∧ l' !! i = Some x ∧ length l' = max (length l) (S i).

Lemma put_at_insert {A} (l : list A) (i : nat) (x y : A) : l !! i = Some y → put_at l (<[i := x]> l) i x.
Proof.
  intros Hi%lookup_lt_Some. split; [|split].
  - intros j Hj. by apply list_lookup_insert_ne.
  - by apply list_lookup_insert.
  - rewrite insert_length. lia.
Qed.

Lemma put_at_snoc {A} (l : list A) (x : A) : put_at l (l ++ [x]) (length l) x.
Proof.
  split; [|split].
  - intros j Hj. destruct (decide (j < length l)) as [Hlt|Hge]; [by apply lookup_app_l|].
    rewrite (lookup_ge_None_2 l) by lia. apply lookup_ge_None_2. rewrite app_length. cbn. lia.
  - by apply list_lookup_middle.
  - rewrite app_length. cbn. lia.
Qed.

(* po: the pointers of the relation that the new one replaces (none when it is appended) *)
Lemma hinv_put (w : world) (rs rs' : list rel) (hs' : list hrel) (i : nat) (po : pmapT)
    (h' : heapT) (n' : loc) (hr' : hrel) (r' : rel) :
  hinv w rs → put_at (rels w) hs' i hr' → put_at rs rs' i r' →
  (∀ (k : svar) (l : loc), po !! k = Some l → ∃ hr : hrel, rels w !! i = Some hr ∧ ptr hr !! k = Some l) →
  op_effect (heap w) (next w) po h' n' hr' r' →
  hinv (World h' n' hs') rs'.
Proof.
  intros Hinv (Hhs & Hhi & Hlh) (Hrs & Hri & Hlr) Hpo (Hn & Hb' & Hok' & Hframe & Hprov).
  pose proof Hinv as (Hlen & Hb & Hown & Hloc).
  (* a pointer of the new relation that an older relation j holds as well was a pointer of the
     relation at i, so j = i *)
  assert (Hnew : ∀ (j : nat) (hrj : hrel) (k kj : svar) (l : loc),
            rels w !! j = Some hrj → ptr hrj !! kj = Some l → ptr hr' !! k = Some l → j = i).
  { intros j hrj k kj l Hj Hkj Hk.
    pose proof (hinv_pbelow _ _ _ _ Hinv Hj _ _ Hkj) as Hl.
    destruct (Hprov _ _ Hk) as [[k' Hk']|Hge]; [|lia].
    destruct (Hpo _ _ Hk') as (hr & Hi & Hk''). by apply (Hown j i hrj hr kj k' l). }
  split; [cbn [rels]; lia|]. split; [done|]. cbn [heap next rels]. split.
  - intros i1 i2 x1 x2 k1 k2 l H1 H2 Hk1 Hk2.
    destruct (decide (i1 = i)) as [->|Hne1]; destruct (decide (i2 = i)) as [->|Hne2]; [done| | |].
    + rewrite Hhi in H1. injection H1 as <-. rewrite Hhs in H2 by done.
      symmetry. by apply (Hnew i2 x2 k1 k2 l).
    + rewrite Hhi in H2. injection H2 as <-. rewrite Hhs in H1 by done.
      by apply (Hnew i1 x1 k2 k1 l).
    + rewrite Hhs in H1, H2 by done. by apply (Hown i1 i2 x1 x2 k1 k2 l).
  - intros j hrj rj Hj Hrj. destruct (decide (j = i)) as [->|Hne].
    + rewrite Hhi in Hj. rewrite Hri in Hrj. by injection Hj as <-; injection Hrj as <-.
    + rewrite Hhs in Hj by done. rewrite Hrs in Hrj by done.
      apply (local_ok_frame (heap w)); [by apply (Hloc j)|].
      intros k l Hk. apply Hframe; [by apply (hinv_pbelow w rs j hrj Hinv Hj k)|].
      intros k' Hk'. destruct (Hpo _ _ Hk') as (hr & Hi & Hk''). apply Hne.
      by apply (Hown j i hrj hr k k' l).
Qed.

Lemma hinv_update (w : world) (rs : list rel) (i : nat) (hr : hrel) (r : rel)
    (h' : heapT) (n' : loc) (hr' : hrel) (r' : rel) :
  hinv w rs → rels w !! i = Some hr → rs !! i = Some r →
  op_effect (heap w) (next w) (ptr hr) h' n' hr' r' →
  hinv (World h' n' (<[i := hr']> (rels w))) (<[i := r']> rs).
Proof.
  intros Hinv Hi Hr. apply (hinv_put w rs _ _ i (ptr hr) h' n' hr' r' Hinv).
  - by eapply put_at_insert.
  - by eapply put_at_insert.
  - intros k l Hk. by exists hr.
Qed.

Lemma hstep_inv (w : world) (rs : list rel) (o : op) :
  hinv w rs → all_ok rs → legal_op rs o → hinv (hstep w o) (step rs o).
Proof.
  intros Hinv Hall Hleg. pose proof Hinv as (Hlen & Hb & _).
  (* for all three operations: nothing changes at either level when relation i does not exist;
     otherwise r is its value-level counterpart *)
  destruct o as [i a b|i a|i]; cbn [hstep step]; unfold hupd, upd;
    (destruct (rels w !! i) as [hr|] eqn:Ei; [|by rewrite (hinv_lookup_None w rs i)]);
    destruct (hinv_lookup w rs i hr Hinv Ei) as (r & Hr & Hok); rewrite Hr;
    assert (rel_ok r) as [Halr _] by (by eapply Forall_lookup_1).
  - destruct (hadd (heap w) (next w) hr a b) as [[h' n'] hr'] eqn:E.
    apply (hinv_update w rs i hr r); [done..|]. by apply (hadd_spec _ _ _ r _ _ _ _ _ Hb Hok Halr (Hleg _ Hr)).
  - apply (hinv_update w rs i hr r); [done..|]. by apply hremove_spec.
  - destruct (hcopy (heap w) (next w) (ptr hr)) as [[h' n'] p'] eqn:E.
    pose proof (hinv_pbelow _ _ _ _ Hinv Ei) as Hp.
    pose proof (hcopy_spec _ _ _ _ _ _ Hb Hp E) as Hcp.
    pose proof Hcp as (S1 & S2 & S3 & _ & S5 & _). destruct Hok as (Hag & Hcm & Hcv).
    apply (hinv_put w rs _ _ (length (rels w)) ∅ h' n' (HRel p' (hcm hr) (hcv hr)) r Hinv); try done.
    + apply put_at_snoc.
    + rewrite Hlen. apply put_at_snoc.
    + split; [done|]. split; [done|]. split; [|split].
      * split; [|done]. by apply (copied_agree _ _ _ _ _ _ _ Hcp).
      * intros l Hl _. by apply S3.
      * intros k l Hk. right. by destruct (S5 _ _ Hk).
Qed.

Lemma hinv0 : hinv world0 [empty_rel].
Proof.
  split; [done|]. split; [intros l [x Hx]; cbn in Hx; by rewrite lookup_empty in Hx|]. split.
  - intros i j h1 h2 k1 k2 l H1 H2 Hk1.
    apply list_lookup_singleton_Some in H1 as [_ <-]. cbn in Hk1. by rewrite lookup_empty in Hk1.
  - intros i hr r H1 H2.
    apply list_lookup_singleton_Some in H1 as [_ <-]. apply list_lookup_singleton_Some in H2 as [_ <-].
    split; [|done]. split; [intros k l Hk; cbn in Hk; by rewrite lookup_empty in Hk|].
    intros k _. apply cls_empty.
Qed.

Lemma hfold_inv (ops : list op) : ∀ (w : world) (rs : list rel),
  hinv w rs → all_ok rs → legal_ops rs ops →
  hinv (fold_left hstep ops w) (fold_left step ops rs).
Proof.
  induction ops as [|o ops IH]; intros w rs Hinv Hall Hl; [done|].
  destruct Hl as [H1 H2]. cbn [fold_left].
  apply IH; [by apply hstep_inv|by apply step_all_ok|done].
Qed.

Theorem hrun_inv (ops : list op) : legal_ops [empty_rel] ops → hinv (hrun ops) (run_ops ops).
Proof.
  intros Hl. apply hfold_inv; [apply hinv0|apply all_ok0|done].
Qed.

Theorem heap_refines (ops : list op) : legal_ops [empty_rel] ops →
  ∀ (i : nat) (hr : hrel) (r : rel), rels (hrun ops) !! i = Some hr → run_ops ops !! i = Some r →
  (∀ k : svar, hcls (hrun ops) hr k = cls (al r) k) ∧ hcm hr = cm r ∧ hcv hr = cv r.
Proof.
  intros Hl i hr r Hi Hr. destruct (hrun_inv ops Hl) as (_ & _ & _ & Hloc).
  destruct (Hloc i hr r Hi Hr) as (Hag & Hcm & Hcv).
  split; [|done]. intros k. unfold hcls. by apply hcls_agree.
Qed.

Theorem heap_same_length (ops : list op) : legal_ops [empty_rel] ops →
  length (rels (hrun ops)) = length (run_ops ops).
Proof. intros Hl. by destruct (hrun_inv ops Hl) as (H & _). Qed.

Theorem heap_sharing (ops : list op) : legal_ops [empty_rel] ops →
  let w := hrun ops in
  (∀ (i j : nat) (h1 h2 : hrel) (k1 k2 : svar) (l : loc),
     rels w !! i = Some h1 → rels w !! j = Some h2 →
     ptr h1 !! k1 = Some l → ptr h2 !! k2 = Some l → i = j ∧ k2 ∈ hcls w h1 k1) ∧
  (∀ (i : nat) (hr : hrel) (k : svar) (l : loc),
     rels w !! i = Some hr → ptr hr !! k = Some l → (l < next w)%positive ∧ is_Some (heap w !! l)).
Proof.
  intros Hl w. pose proof (hrun_inv ops Hl) as Hinv. fold w in Hinv.
  pose proof Hinv as (Hlen & Hb & Hown & Hloc). split.
  - intros i j h1 h2 k1 k2 l H1 H2 Hk1 Hk2.
    assert (i = j) as <- by (by eapply Hown). split; [done|].
    rewrite H1 in H2. injection H2 as <-.
    destruct (hinv_lookup _ _ i h1 Hinv H1) as (r & Hr & Hag & _).
    assert (rel_ok r) as [[Hi _] _] by (by eapply Forall_lookup_1, Hr; apply history_invariants).
    unfold hcls. rewrite (hcls_agree _ _ _ k1 Hag). eapply agree_sharers; [done|apply Hi|done..].
  - intros i hr k l Hi Hk. split; [by eapply hinv_pbelow|].
    destruct (hinv_lookup _ _ i hr Hinv Hi) as (r & _ & (Hg1 & _) & _). rewrite (Hg1 _ _ Hk). eauto.
Qed.

Theorem heap_copy_fresh (ops : list op) (i : nat) (hr : hrel) : legal_ops [empty_rel] ops →
  let w := hrun ops in
  let w' := hstep w (Copy i) in
  rels w !! i = Some hr →
  ∃ hr' : hrel, rels w' = rels w ++ [hr'] ∧
    hcm hr' = hcm hr ∧ hcv hr' = hcv hr ∧
    (∀ k : svar, ptr hr' !! k = None ↔ ptr hr !! k = None) ∧
    (∀ k : svar, hcls w' hr' k = hcls w hr k) ∧
    (∀ (k1 k2 : svar) (l : loc), ptr hr' !! k1 = Some l → ptr hr' !! k2 = Some l → k1 = k2) ∧
    (∀ (k : svar) (l : loc), ptr hr' !! k = Some l →
       (next w ≤ l)%positive ∧ (l < next w')%positive ∧ heap w !! l = None ∧ is_Some (heap w' !! l)) ∧
    (∀ (j : nat) (hrj : hrel) (k k' : svar) (l : loc),
       rels w !! j = Some hrj → ptr hrj !! k = Some l → ptr hr' !! k' ≠ Some l).
Proof.
  intros Hl w w' Hi. pose proof (hrun_inv ops Hl) as Hinv. fold w in Hinv.
  pose proof Hinv as (Hlen & Hb & Hown & Hloc).
  unfold w'. cbn [hstep]. rewrite Hi.
  destruct (hcopy (heap w) (next w) (ptr hr)) as [[h' n'] p'] eqn:E.
  pose proof (hinv_pbelow _ _ _ _ Hinv Hi) as Hp.
  pose proof (hcopy_spec _ _ _ _ _ _ Hb Hp E) as Hcp. pose proof Hcp as (S1 & S2 & S3 & S4 & S5 & S6).
  exists (HRel p' (hcm hr) (hcv hr)). cbn [rels heap next ptr hcm hcv].
  split; [done|]. split; [done|]. split; [done|]. split; [done|].
  destruct (hinv_lookup _ _ i hr Hinv Hi) as (r & _ & Hag & _).
  split; [|split; [done|split]].
  - intros k. unfold hcls. cbn [heap ptr].
    rewrite (hcls_agree _ _ _ k Hag). apply hcls_agree. by eapply copied_agree.
  - intros k l Hk. destruct (S5 _ _ Hk) as (J1 & J2 & l0 & J3 & J4).
    split; [done|]. split; [done|]. split; [|rewrite J4; eauto].
    destruct (heap w !! l) as [x|] eqn:Ex; [|done].
    assert ((l < next w)%positive) by (apply Hb; rewrite Ex; eauto). lia.
  - intros j hrj k k' l Hj Hk Hk'.
    pose proof (hinv_pbelow _ _ _ _ Hinv Hj _ _ Hk) as Hlt.
    destruct (S5 _ _ Hk') as (J1 & _). lia.
Qed.

(* a boolean decision of legality, for concrete witnesses *)
Definition legal_opb (rs : list rel) (o : op) : bool :=
  match o with
  | Add i a b => match rs !! i with Some r => bool_decide (tog b ∉ cls (al r) a) | None => true end
  | _ => true
  end.
Fixpoint legal_opsb (rs : list rel) (ops : list op) : bool :=
  match ops with
  | [] => true
  | o :: ops' => legal_opb rs o && legal_opsb (step rs o) ops'
  end.
Lemma legal_opsb_sound (ops : list op) : ∀ rs : list rel, legal_opsb rs ops = true → legal_ops rs ops.
Proof.
  induction ops as [|o ops IH]; intros rs H; [done|].
  cbn [legal_opsb] in H. apply andb_true_iff in H as [H1 H2].
  split; [|by apply IH].
  destruct o as [i a b|i a|i]; [|done..]. cbn [legal_op legal_opb] in *.
  intros r Hr. rewrite Hr in H1. by apply bool_decide_eq_true_1 in H1.
Qed.

(* boolean form of "relation i of the heap-level world answers aliases(k) like the value level" *)
Definition refines_atb (w : world) (rs : list rel) (i : nat) (k : svar) : bool :=
  match rels w !! i, rs !! i with
  | Some hr, Some r => bool_decide (hcls w hr k = cls (al r) k)
  | _, _ => true
  end.

(* the mutant "shallow copy()": the same history run with a pointer-sharing Copy does NOT refine
   the value-level model — an add on the source leaks into the copy *)
Theorem shallow_copy_refuted :
  ∃ ops : list op, legal_ops [empty_rel] ops ∧
    ¬ (∀ (i : nat) (hr : hrel) (r : rel),
         rels (hrun_shallow ops) !! i = Some hr → run_ops ops !! i = Some r →
         (∀ k : svar, hcls (hrun_shallow ops) hr k = cls (al r) k) ∧ hcm hr = cm r ∧ hcv hr = cv r).
Proof.
  set (a := (false, 1%positive) : svar). set (b := (false, 2%positive) : svar). set (c := (false, 3%positive) : svar).
  set (ops := [Add 0 a b; Copy 0; Add 0 a c]).
  exists ops. split.
  - apply legal_opsb_sound. vm_compute. reflexivity.
  - intros H.
    assert (refines_atb (hrun_shallow ops) (run_ops ops) 1 a = true) as Ht.
    { unfold refines_atb.
      destruct (rels (hrun_shallow ops) !! 1) as [hr|] eqn:E1; [|done].
      destruct (run_ops ops !! 1) as [r|] eqn:E2; [|done].
      apply bool_decide_eq_true_2. by apply (H 1 hr r E1 E2). }
    assert (refines_atb (hrun_shallow ops) (run_ops ops) 1 a = false) as Hf by (vm_compute; reflexivity).
    rewrite Ht in Hf. discriminate Hf.
Qed.

(* the faithful copy() agrees on that same history *)
Example deep_copy_same_history_ok :
  let a : svar := (false, 1%positive) in let b : svar := (false, 2%positive) in let c : svar := (false, 3%positive) in
  let ops := [Add 0 a b; Copy 0; Add 0 a c] in
  refines_atb (hrun ops) (run_ops ops) 1 a = true ∧ legal_opsb [empty_rel] ops = true.
Proof. vm_compute. split; reflexivity. Qed.
