(* Proofs/C07_lex.v — lexical consistency of pymoca's class lookup: in the lexical scope of a valid path, a
   class found by lookup comes with exactly the lexical scope of its own lexical parent. *)
From Coq Require Import List ZArith Bool PArith Lia.
From PV Require Import Lib.ClassTree.
Import ListNotations.

Lemma od_get_key {A} (key : A -> ident) n l x : od_get key Pos.eqb n l = Some x -> key x = n.
Proof.
  induction l as [|y l IH]; cbn [od_get]; [discriminate|].
  destruct (Pos.eqb_spec (key y) n) as [E|N]; [intros H; inversion H; subst; reflexivity | exact IH].
Qed.

Lemma od_get_entries lex n cs :
  od_get e_key Pos.eqb n (entries_of lex cs) = option_map (fun c => mkEntry c lex) (od_get c_name Pos.eqb n cs).
Proof.
  unfold entries_of. induction cs as [|c cs IH]; [reflexivity|]. cbn [map od_get]. unfold e_key at 1. cbn [e_def].
  destruct (Pos.eqb (c_name c) n); [reflexivity | exact IH].
Qed.

(* the classes reached by navigating a dotted path from a class list *)
Fixpoint nav (cs : list cdef) (p : path) : option (list cdef) :=
  match p with
  | [] => Some cs
  | n :: p' => match od_get c_name Pos.eqb n cs with Some c => nav (c_classes c) p' | None => None end
  end.

Lemma nav_app cs p1 p2 cs1 : nav cs p1 = Some cs1 -> nav cs (p1 ++ p2) = nav cs1 p2.
Proof.
  revert cs. induction p1 as [|n p1 IH]; intros cs H; cbn [nav app] in *; [inversion H; reflexivity|].
  destruct (od_get c_name Pos.eqb n cs); [apply IH; exact H | discriminate H].
Qed.

Lemma lff_app root : forall p1 lex cs acc cs1 p2,
  nav cs p1 = Some cs1 ->
  lex_frames_from root lex cs (p1 ++ p2) acc =
  lex_frames_from root (lex ++ p1) cs1 p2 (lex_frames_from root lex cs p1 acc).
Proof.
  induction p1 as [|n p1 IH]; intros lex cs acc cs1 p2 H; cbn [nav app lex_frames_from] in *.
  - inversion H; subst. rewrite app_nil_r. reflexivity.
  - destruct (od_get c_name Pos.eqb n cs) as [c|]; [|discriminate H].
    rewrite (IH _ _ _ _ p2 H). rewrite <- app_assoc. reflexivity.
Qed.

Lemma nav_snoc : forall p cs y cs',
  nav cs (p ++ [y]) = Some cs' ->
  exists cs0 d, nav cs p = Some cs0 /\ od_get c_name Pos.eqb y cs0 = Some d.
Proof.
  induction p as [|z p IH]; intros cs y cs' N; cbn [nav app] in *.
  - destruct (od_get c_name Pos.eqb y cs) as [d|] eqn:G; [|discriminate N].
    exists cs, d. split; [reflexivity | exact G].
  - destruct (od_get c_name Pos.eqb z cs); [exact (IH _ _ _ N) | discriminate N].
Qed.

Section Lex.
  Variable root : list cdef.
  Notation LS := (lex_scope root).

  Definition located (c : cdef) (lex : path) : Prop :=
    exists cs, nav root lex = Some cs /\ od_get c_name Pos.eqb (c_name c) cs = Some c.

  Lemma located_intro lex cs n c : nav root lex = Some cs -> od_get c_name Pos.eqb n cs = Some c -> located c lex.
  Proof. intros N G. exists cs. split; [exact N|]. rewrite (od_get_key c_name n _ c G). exact G. Qed.

  (* the scope of a class located at lex: its own frame, then the scope of its lexical parent *)
  Lemma LS_snoc c lex : located c lex -> LS (lex ++ [c_name c]) = own_frame c lex :: LS lex.
  Proof.
    intros [cs [N G]]. unfold lex_scope. rewrite (lff_app root lex [] root _ cs [c_name c] N).
    cbn [lex_frames_from app]. rewrite G. reflexivity.
  Qed.

  Lemma located_child c lex n c' :
    located c lex -> od_get c_name Pos.eqb n (c_classes c) = Some c' -> located c' (lex ++ [c_name c]).
  Proof.
    intros [cs [N G]] H. apply (located_intro _ (c_classes c) n); [|exact H].
    rewrite (nav_app root lex [c_name c] cs N). cbn [nav]. rewrite G. reflexivity.
  Qed.

  Lemma descend_consistent : forall rest c lex c2 lex2,
    located c lex -> descend c lex rest = Some (c2, lex2) ->
    located c2 lex2 /\ descend_frames c lex rest ++ LS lex = LS lex2.
  Proof.
    induction rest as [|m rest IH]; intros c lex c2 lex2 Hl H; cbn [descend descend_frames] in *.
    - inversion H; subst. split; [assumption | reflexivity].
    - destruct (od_get c_name Pos.eqb m (c_classes c)) as [c'|] eqn:G; [|discriminate H].
      destruct (IH c' (lex ++ [c_name c]) c2 lex2 (located_child c lex m c' Hl G) H) as [L2 E].
      split; [assumption|]. rewrite <- app_assoc. cbn [app]. rewrite <- (LS_snoc c lex Hl). exact E.
  Qed.

  Lemma lookup_frame fr S lex cs ref c clex S' b :
    fr :: S = LS lex -> f_entries fr = entries_of lex cs -> f_inst fr = false ->
    (forall n c0, od_get c_name Pos.eqb n cs = Some c0 -> located c0 lex) ->
    lookup (fr :: S) ref = Some (c, clex, S', b) ->
    (located c clex /\ S' = LS clex /\ b = false) \/ lookup S ref = Some (c, clex, S', b).
  Proof.
    intros ES Ee Ei Hloc H. destruct ref as [|n rest]; [discriminate H|].
    cbn [lookup] in H. rewrite Ee, od_get_entries in H.
    destruct (od_get c_name Pos.eqb n cs) as [c0|] eqn:G; cbn [option_map e_def e_lex] in H; [|right; exact H].
    destruct (descend c0 lex rest) as [[c1 lex1]|] eqn:D; [|right; exact H].
    left. destruct (descend_consistent rest c0 lex c1 lex1 (Hloc n c0 G) D) as [L E].
    rewrite ES, E, Ei in H. inversion H; subst. repeat split. exact L.
  Qed.

  Theorem lex_consistent : forall lex cs ref c clex S' b,
    nav root lex = Some cs -> lookup (LS lex) ref = Some (c, clex, S', b) ->
    located c clex /\ S' = LS clex /\ b = false.
  Proof.
    induction lex as [|x lex IH] using rev_ind; intros cs ref c clex S' b N H.
    - destruct (lookup_frame _ [] [] root ref c clex S' b eq_refl eq_refl eq_refl
                  (fun n c0 G => located_intro [] root n c0 eq_refl G) H) as [R|R]; [exact R|].
      destruct ref; discriminate R.
    - destruct (nav_snoc lex root x cs N) as [cs0 [d [N0 G]]].
      pose proof (located_intro lex cs0 x d N0 G) as Hd.
      rewrite <- (od_get_key c_name x _ d G) in H. rewrite (LS_snoc d lex Hd) in H.
      destruct (lookup_frame _ _ (lex ++ [c_name d]) (c_classes d) ref c clex S' b
                  (eq_sym (LS_snoc d lex Hd)) eq_refl eq_refl (fun n c0 G0 => located_child d lex n c0 Hd G0) H)
        as [R|R]; [exact R | exact (IH cs0 ref c clex S' b N0 R)].
  Qed.

  Corollary lookup_root ref c lex S' b :
    lookup (LS []) ref = Some (c, lex, S', b) -> located c lex /\ S' = LS lex /\ b = false.
  Proof. exact (lex_consistent [] root ref c lex S' b eq_refl). Qed.

  Corollary lookup_located d dl ref c clex S' b :
    located d dl -> lookup (LS dl) ref = Some (c, clex, S', b) -> located c clex /\ S' = LS clex /\ b = false.
  Proof. intros [cs [N _]]. exact (lex_consistent dl cs ref c clex S' b N). Qed.
End Lex.
