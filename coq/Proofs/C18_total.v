(* C18 — when is the expansion defined?  Exact carve-out of the recorded defect class
   ("array attribute of lower rank than the index, inside a component array").  stdlib only. *)
From Coq Require Import String List Arith ZArith Bool Lia.
From PV Require Import Model.C18_expand Proofs.C18_expand.
Import ListNotations.
Open Scope nat_scope.
Open Scope list_scope.

(* a CasADi matrix given row-wise really has n1 rows of n2 entries *)
Definition mat_wf (n1 n2 : nat) (rows : list (list aval)) : Prop :=
  length rows = n1 /\ Forall (fun r => length r = n2) rows.

(* the attribute object is an array of tensor shape d: a nested list of that shape, or a DM/MX
   holding a length-n array as an n x 1 column / an n x m array as an n x m matrix *)
Definition attr_matches (d : list nat) (a : attr) : Prop :=
  match a with
  | AtScalar _ => False
  | AtList l => shaped d l
  | AtMat _ n1 n2 rows => mat_wf n1 n2 rows /\ ((d = [n1] /\ n2 = 1) \/ d = [n1; n2])
  end.

(* scalar attribute objects: np.isscalar values and 1x1 MX expressions (both are broadcast) *)
Definition attr_scalar (a : attr) : Prop :=
  match a with
  | AtScalar _ => True
  | AtMat true n1 n2 rows => n1 * n2 = 1 /\ mat_wf n1 n2 rows
  | _ => False
  end.

(* the expansion is defined on: scalars, and arrays of exactly the tensor shape of the index *)
Definition attr_ok (dims : list nat) (a : attr) : Prop := attr_scalar a \/ attr_matches dims a.

Lemma mat_get_wf n1 n2 rows i j : mat_wf n1 n2 rows -> i < n1 -> j < n2 -> sel_ok (mat_get rows i j) = true.
Proof.
  intros (L & F) Hi Hj. unfold mat_get.
  destruct (nth_error rows i) as [r|] eqn:E.
  - assert (Hr : length r = n2).
    { rewrite Forall_forall in F. apply F. eapply nth_error_In; eauto. }
    destruct (nth_error r j) eqn:E2; [reflexivity|].
    apply nth_error_None in E2. lia.
  - apply nth_error_None in E. lia.
Qed.

Lemma sel_ok_ok dims a idx : attr_ok dims a -> In idx (ndindex dims) -> sel_ok (sel_attr a idx) = true.
Proof.
  intros [S|M] Hin.
  - destruct a as [x|l|[|] n1 n2 rows]; cbn [attr_scalar] in S; try contradiction; [reflexivity|].
    destruct S as (E & W). cbn [sel_attr]. rewrite (proj2 (Nat.eqb_eq _ _) E).
    apply Nat.eq_mul_1 in E as (-> & ->). apply (mat_get_wf 1 1); auto.
  - destruct a as [x|l|ismx n1 n2 rows]; cbn [attr_matches] in M; [contradiction| |].
    + exact (sel_full_ok dims (AtList l) idx M Hin).
    + apply ndindex_In in Hin. destruct M as (W & [(-> & ->)| ->]).
      * inversion Hin as [|k d t r Hk Ht]; subst. inversion Ht; subst.
        rewrite attributes_column by exact Hk. apply (mat_get_wf n1 1); auto.
      * inversion Hin as [|i d t r Hi Ht]; subst. inversion Ht as [|j d' t' r' Hj Ht']; subst.
        inversion Ht'; subst. rewrite attributes_matrix by assumption. apply (mat_get_wf n1 n2); auto.
Qed.

Theorem expand_total_ok v names :
  opt_all (map (scalar_name (uname v) (ushape v)) (ndindex (iter_dims (ushape v)))) = Some names ->
  Forall (attr_ok (iter_dims (ushape v))) (uattrs v) ->
  exists ex, expand_var v = Some ex.
Proof. exact (expand_var_some _ v names (sel_ok_ok _)). Qed.

Definition own_dims (s : vshape) : list nat :=
  match s with Nested g => last g [] | Flat d => d end.
Definition outer_dims (s : vshape) : list nat :=
  match s with Nested g => concat (removelast g) | Flat _ => [] end.

(* what the generator hands over (generator.py l.139-156): a scalar, or an array that has the shape
   of the whole flattened symbol (declared at the top level / modification covering the component
   dimensions), or the shape of the declared member only (declared inside the component's class,
   or `each`) *)
Definition attr_declared (s : vshape) (a : attr) : Prop :=
  attr_scalar a \/ attr_matches (iter_dims s) a \/ attr_matches (own_dims s) a.

(* the two known findings: an ARRAY attribute of the member's own rank on a variable that lives in
   a component ARRAY, i.e. attribute rank < index rank *)
Definition lowrank_in_component_array (s : vshape) (a : attr) : Prop :=
  outer_dims s <> [] /\ attr_matches (own_dims s) a
  /\ length (own_dims s) < length (iter_dims s).

Lemma concat_removelast_last (g : list (list nat)) : concat g = concat (removelast g) ++ last g [].
Proof.
  destruct g as [|x g]; [reflexivity|].
  rewrite (app_removelast_last [] (l := x :: g)) at 1 by discriminate.
  rewrite concat_app. cbn [concat]. now rewrite app_nil_r.
Qed.

Lemma iter_outer_own s : iter_dims s = outer_dims s ++ own_dims s.
Proof. destruct s; cbn; [apply concat_removelast_last | reflexivity]. Qed.

Theorem carveout_exact s a :
  attr_declared s a -> attr_ok (iter_dims s) a \/ lowrank_in_component_array s a.
Proof.
  intros [S|[M|M]]; [left; now left | left; now right |].
  destruct (outer_dims s) as [|o os] eqn:E.
  - left. right. rewrite iter_outer_own, E. exact M.
  - right. repeat split; auto.
    + rewrite E; discriminate.
    + rewrite iter_outer_own, E, app_length. cbn. lia.
Qed.

(* no component-array dimension on the path: every declared attribute is fine *)
Corollary no_component_array_total s a : outer_dims s = [] -> attr_declared s a -> attr_ok (iter_dims s) a.
Proof.
  intros E D. destruct (carveout_exact s a D) as [H|(H & _)]; [exact H | contradiction].
Qed.

Lemma lowrank_list_err d : forall l idx, shaped d l -> length d < length idx -> sel_list l idx = SErr.
Proof.
  induction d as [|n d IH]; intros l idx S L; cbn [shaped] in S.
  - destruct S as (a & ->). destruct idx; [cbn in L; lia | reflexivity].
  - destruct S as (l' & -> & _ & F). destruct idx as [|i idx]; [cbn in L; lia|].
    cbn [sel_list]. destruct (nth_error l' i) as [x|] eqn:E; [|reflexivity].
    apply IH; [|cbn in L; lia]. rewrite Forall_forall in F. apply F. eapply nth_error_In; eauto.
Qed.

Theorem lowrank_list_refuted v l d :
  In (AtList l) (uattrs v) -> shaped d l -> length d < length (iter_dims (ushape v)) ->
  ndindex (iter_dims (ushape v)) <> [] ->
  expand_var v = None.
Proof.
  intros Hin S L NE.
  destruct (ndindex (iter_dims (ushape v))) as [|idx rest] eqn:EN; [contradiction|].
  assert (Hidx : In idx (ndindex (iter_dims (ushape v)))) by (rewrite EN; now left).
  apply (expand_var_none v (AtList l) idx Hin Hidx), (lowrank_list_err d _ _ S).
  apply ndindex_In, Forall2_length in Hidx. lia.
Qed.

(* DM flavour of the class: a length-n member (n >= 2) given as an n x 1 DM inside `Sub s[c]` *)
Theorem lowrank_dm_refuted v n c rows :
  In (AtMat false n 1 rows) (uattrs v) -> iter_dims (ushape v) = [c; n] -> 0 < c -> 2 <= n ->
  expand_var v = None.
Proof.
  intros Ha D Hc Hn. apply (expand_var_none v (AtMat false n 1 rows) [0; 1]); auto.
  - rewrite D. apply ndindex_In. repeat constructor; lia.
  - cbn [sel_attr sel_mat]. replace (1 <? 1) with false by reflexivity. now rewrite andb_false_r.
Qed.
