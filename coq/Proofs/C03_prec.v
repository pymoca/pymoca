(* C03 — the parser of Model/C03_prec.v reads back what the printer of Lib/C03_spec.v prints, up to
   `resign`, for every table accepted by `tab_ok`, the listener table `std_lt` and every `wf` tree. *)
From Coq Require Import List Arith Lia Bool.
From PV Require Import Model.C03_prec Lib.C03_spec.
Import ListNotations.
Local Open Scope nat_scope.

(* ANTLR numbers the 9 alternatives of rule expr 9..1 from the top; for the binary operators that is
   `blev`.  The prefix sign, first alternative, gets 9 where the specification has 6: hence `resign`. *)
Definition blabel (s : sym) : label :=
  match s with
  | SMul | SDiv | SEMul | SEDiv => LMul
  | SPlus | SMinus | SEPlus | SEMinus => LAdd
  | SLt | SLe | SGt | SGe | SEq | SNe => LRel
  | SAnd => LAnd | SOr => LOr
  | _ => LPrimary
  end.
Definition pbin_spec (s : sym) : option (nat * label) :=
  if is_binop s && negb (is_pow s) then Some (blev s, blabel s) else None.
Definition ppre_spec (s : sym) : option (nat * label) :=
  match s with SNot => Some (4, LNot) | SPlus | SMinus => Some (9, LSigned) | _ => None end.
Definition ppow_spec (s : sym) : option label := if is_pow s then Some LExp else None.

Lemma g4_spec s : ppre g4 s = ppre_spec s /\ pbin g4 s = pbin_spec s /\ ppow g4 s = ppow_spec s.
Proof. destruct s; repeat split. Qed.

Lemma pbin_spec_some s p l : pbin_spec s = Some (p, l) ->
  p <= 7 /\ forall a b, build_bin std_lt l s a b = Bin s a b.
Proof. destruct s; intros [= <- <-]; split; (apply Nat.leb_le || idtac); reflexivity. Qed.
Lemma ppre_spec_some s p l : ppre_spec s = Some (p, l) -> forall e, build_un std_lt l s e = Un s e.
Proof. destruct s; intros [= <- <-]; reflexivity. Qed.

Lemma label_eqb_eq a b : label_eqb a b = true -> a = b.
Proof. destruct a, b; cbn; try discriminate; reflexivity. Qed.
Lemma opt_nl_eqb_eq a b : opt_nl_eqb a b = true -> a = b.
Proof.
  destruct a as [[x l]|], b as [[y m]|]; cbn; try discriminate; auto.
  intros H. apply andb_true_iff in H. destruct H as [H1 H2].
  apply Nat.eqb_eq in H1. apply label_eqb_eq in H2. congruence.
Qed.
Lemma opt_l_eqb_eq a b : opt_l_eqb a b = true -> a = b.
Proof.
  destruct a as [l|], b as [m|]; cbn; try discriminate; auto.
  intros H. apply label_eqb_eq in H. congruence.
Qed.

(* `step` uses the result of a recursive call only as the scrutinee of a match that answers None where
   the call does, or returns it: it is monotone in `self` for this order. *)
Definition rle (x y : R) : Prop := forall r, x = Some r -> y = Some r.
Definition ext (f g : mode -> list tok -> R) : Prop := forall m ts, rle (f m ts) (g m ts).

Lemma rle_refl x : rle x x.
Proof. intros r H. exact H. Qed.
Lemma rle_bind x y (k k' : res * list tok -> R) :
  rle x y -> (forall v, rle (k v) (k' v)) ->
  rle (match x with Some v => k v | None => None end) (match y with Some v => k' v | None => None end).
Proof. intros Hxy Hk r. destruct x as [v|]; [|discriminate]. rewrite (Hxy v eq_refl). apply Hk. Qed.
Lemma rle_bindE x y (k k' : expr -> list tok -> R) :
  rle x y -> (forall e r, rle (k e r) (k' e r)) ->
  rle (match x with Some (RE e, r) => k e r | _ => None end)
     (match y with Some (RE e, r) => k' e r | _ => None end).
Proof. intros Hxy Hk. apply rle_bind; [exact Hxy|]. intros [[e|l] r]; [apply Hk|apply rle_refl]. Qed.

Section Fuel.
  Variable t : table.
  Variable lt : ltable.

  (* the `| _ =>` branch of `step` at `MExpr` *)
  Definition expr_primary (self : mode -> list tok -> R) (lvl : nat) (ts : list tok) : R :=
    match self MPrimary ts with
    | Some (RE a, TSym s :: r) =>
        match ppow t s with
        | Some l => match self MPrimary r with
                    | Some (RE b, r') => self (MLoop lvl (build_bin lt l s a b)) r'
                    | _ => None
                    end
        | None => self (MLoop lvl a) (TSym s :: r)
        end
    | Some (RE a, r) => self (MLoop lvl a) r
    | _ => None
    end.
  Lemma step_mono f g : ext f g -> ext (step t lt f) (step t lt g).
  Proof.
    intros H m ts. destruct m as [|acc|lvl|lvl acc| |acc]; cbn [step].
    - destruct ts as [|[] r]; try apply H.
      apply rle_bind; [apply H|]. intros [[e|all] r']; apply rle_refl.
    - apply rle_bindE; [apply H|]. intros c [|[] r1]; try apply rle_refl.
      apply rle_bindE; [apply H|]. intros b [|[] r2]; try apply rle_refl.
      + apply H.
      + apply rle_bindE; [apply H|]. intros e r3. apply rle_refl.
    - assert (P : rle (expr_primary f lvl ts) (expr_primary g lvl ts)).
      { apply rle_bindE; [apply H|]. intros a [|[] r]; try apply H.
        destruct (ppow t s); [|apply H].
        apply rle_bindE; [apply H|]. intros b r'. apply H. }
      destruct ts as [|[] r]; try exact P.
      destruct (ppre t s) as [[p l]|]; [|apply rle_refl].
      apply rle_bindE; [apply H|]. intros e r'. apply H.
    - destruct ts as [|[] r]; try apply rle_refl.
      destruct (pbin t s) as [[p l]|]; [|apply rle_refl].
      destruct (lvl <=? p); [|apply rle_refl].
      apply rle_bindE; [apply H|]. intros e r'. apply H.
    - destruct ts as [|[] r]; try apply rle_refl.
      1,3: destruct r as [|[] r]; try apply rle_refl.
      1,2: apply rle_bind; [apply H|]; intros [[e|l] r']; apply rle_refl.
      apply rle_bindE; [apply H|]. intros e r'. apply rle_refl.
    - apply rle_bindE; [apply H|]. intros e [|[] r]; try apply rle_refl. apply H.
  Qed.

  Lemma run_mono f g : f <= g -> ext (run t lt f) (run t lt g).
  Proof.
    assert (S1 : forall n, ext (run t lt n) (run t lt (S n))).
    { induction n as [|n IH]; [intros m ts r H; discriminate H | exact (step_mono _ _ IH)]. }
    induction 1 as [|g Hle IH]; intros m ts r H; [exact H | apply S1, IH, H].
  Qed.
End Fuel.

Section Roundtrip.
  Variable t : table.
  Hypothesis Htab : tab_ok t = true.

  Lemma tab_spec s : ppre t s = ppre_spec s /\ pbin t s = pbin_spec s /\ ppow t s = ppow_spec s.
  Proof.
    assert (I0 : In s all_syms) by (apply (nth_error_In _ (sym_idx s)); destruct s; reflexivity).
    pose proof Htab as H. unfold tab_ok in H. rewrite forallb_forall in H.
    apply H in I0. rewrite !andb_true_iff in I0. destruct I0 as [[A B] C].
    rewrite (opt_nl_eqb_eq _ _ A), (opt_nl_eqb_eq _ _ B), (opt_l_eqb_eq _ _ C). apply g4_spec.
  Qed.
  Lemma pbin_t s : pbin t s = pbin_spec s.
  Proof. apply tab_spec. Qed.
  Lemma ppre_t s : ppre t s = ppre_spec s.
  Proof. apply tab_spec. Qed.
  Lemma ppow_t s : ppow t s = ppow_spec s.
  Proof. apply tab_spec. Qed.

  Definition Run (m : mode) (ts : list tok) (res : res * list tok) : Prop :=
    exists f, run t std_lt f m ts = Some res.

  Lemma Run_lift m ts r : Run m ts r -> exists f, forall F, f <= F -> run t std_lt F m ts = Some r.
  Proof. intros [f H]. exists f. intros F HF. exact (run_mono t std_lt f F HF m ts r H). Qed.

  Definition nolp (rest : list tok) : Prop := match rest with TLp :: _ => False | _ => True end.
  Definition rest_ok (rest : list tok) : Prop :=
    match rest with TSym s :: _ => is_pow s = false | TLp :: _ => False | _ => True end.
  Definition closing (rest : list tok) : Prop :=
    match rest with TSym _ :: _ => False | TLp :: _ => False | _ => True end.
  Definition head_le (p : nat) (rest : list tok) : Prop :=
    match rest with
    | TSym s :: _ => match pbin t s with Some (p', _) => p' <= p | None => True end
    | _ => True
    end.

  Lemma rest_ok_nolp rest : rest_ok rest -> nolp rest.
  Proof. destruct rest as [|[] r]; cbn; auto. Qed.
  Lemma closing_rest_ok rest : closing rest -> rest_ok rest.
  Proof. destruct rest as [|[] r]; cbn; auto; contradiction. Qed.
  Lemma closing_head_le p rest : closing rest -> head_le p rest.
  Proof. destruct rest as [|[] r]; cbn; auto; contradiction. Qed.
  Lemma head_le_7 rest : head_le 7 rest.
  Proof.
    destruct rest as [|[] r]; cbn; auto. destruct (pbin t s) as [[n l]|] eqn:E; auto.
    rewrite pbin_t in E. apply (pbin_spec_some _ _ _ E).
  Qed.
  Lemma head_le_mono p p' rest : p <= p' -> head_le p rest -> head_le p' rest.
  Proof. destruct rest as [|[] r]; cbn; auto. destruct (pbin t s) as [[n l]|]; auto. lia. Qed.

  Ltac unf f :=
    exists (S f); change (run t std_lt (S f)) with (step t std_lt (run t std_lt f)); unfold step; cbv beta iota.

  Lemma Run_primary_atom a rest : nolp rest -> Run MPrimary (atok a :: rest) (RE (aexpr a), rest).
  Proof.
    intros H. exists 1. destruct a as [x|n|[|]|s]; try reflexivity.
    destruct rest as [|[] rest]; try reflexivity. contradiction.
  Qed.

  Lemma Run_expression ts res : Run (MExpr 0) ts res -> Run MExpression ts res.
  Proof.
    intros [f H]. destruct ts as [|[] r]; try (unf f; exact H).
    destruct f as [|[|f]]; discriminate H.
  Qed.

  Lemma Run_expr_prefix s p l lvl r x0 rem res :
    ppre t s = Some (p, l) -> Run (MExpr p) r (RE x0, rem) -> Run (MLoop lvl (Un s x0)) rem res ->
    Run (MExpr lvl) (TSym s :: r) res.
  Proof.
    intros Hp [f1 A]%Run_lift [f2 B]%Run_lift.
    unf (f1 + f2). rewrite Hp, A by lia. rewrite ppre_t in Hp. rewrite (ppre_spec_some _ _ _ Hp).
    apply B. lia.
  Qed.

  Lemma run_expr_primary f lvl ts x : run t std_lt f MPrimary ts = Some x ->
    run t std_lt (S f) (MExpr lvl) ts = expr_primary t std_lt (run t std_lt f) lvl ts.
  Proof.
    intros A. destruct ts as [|[] r]; try reflexivity. destruct f; discriminate A.
  Qed.

  Lemma Run_expr_prim lvl ts a r res :
    Run MPrimary ts (RE a, r) -> rest_ok r -> Run (MLoop lvl a) r res -> Run (MExpr lvl) ts res.
  Proof.
    intros [f1 A]%Run_lift Hn [f2 B]%Run_lift.
    pose proof (A (f1 + f2) ltac:(lia)) as A'.
    exists (S (f1 + f2)). rewrite (run_expr_primary _ _ _ _ A'). unfold expr_primary. rewrite A'.
    destruct r as [|[] r0]; try (apply B; lia).
    cbn in Hn. rewrite ppow_t. unfold ppow_spec. rewrite Hn. apply B. lia.
  Qed.

  Lemma Run_expr_pow lvl ts a s r b r' res :
    Run MPrimary ts (RE a, TSym s :: r) -> is_pow s = true -> Run MPrimary r (RE b, r') ->
    Run (MLoop lvl (Bin s a b)) r' res -> Run (MExpr lvl) ts res.
  Proof.
    intros [f1 A]%Run_lift Hp [f2 B]%Run_lift [f3 C]%Run_lift.
    pose proof (A (f1 + f2 + f3) ltac:(lia)) as A'.
    exists (S (f1 + f2 + f3)). rewrite (run_expr_primary _ _ _ _ A'). unfold expr_primary.
    rewrite A', ppow_t. unfold ppow_spec. rewrite Hp, B by lia. apply C. lia.
  Qed.

  Lemma Loop_step lvl acc s p l r e2 r' res :
    pbin t s = Some (p, l) -> lvl <= p -> Run (MExpr (S p)) r (RE e2, r') ->
    Run (MLoop lvl (Bin s acc e2)) r' res -> Run (MLoop lvl acc) (TSym s :: r) res.
  Proof.
    intros Hp Hl [f1 A]%Run_lift [f2 B]%Run_lift.
    unf (f1 + f2). rewrite Hp. destruct (Nat.leb_spec lvl p); [|lia]. rewrite A by lia.
    rewrite pbin_t in Hp. rewrite (proj2 (pbin_spec_some _ _ _ Hp)). apply B. lia.
  Qed.

  Lemma Loop_stop_le p lvl acc rest : head_le p rest -> p < lvl -> Run (MLoop lvl acc) rest (RE acc, rest).
  Proof.
    intros H Hl. unf 0. destruct rest as [|[] r]; try reflexivity.
    cbn in H. destruct (pbin t s) as [[n l]|]; [|reflexivity].
    destruct (Nat.leb_spec lvl n); [lia|reflexivity].
  Qed.
  Lemma Loop_stop_closing lvl acc rest : closing rest -> Run (MLoop lvl acc) rest (RE acc, rest).
  Proof. intros H. exists 1. destruct rest as [|[] r]; try reflexivity; contradiction. Qed.
  Lemma Loop_stop_nil lvl acc : Run (MLoop lvl acc) [] (RE acc, []).
  Proof. exact (Loop_stop_closing lvl acc [] I). Qed.

  (* The operand of `not` is read at level 4, where no binary operator lives: what follows must stay
     below 4, hence the 3. *)
  Definition top_ok (q : nat) (e : sexpr) (rest : list tok) : Prop :=
    match e with
    | SBin o _ _ => if is_pow o then True else q <= blev o -> head_le (blev o) rest
    | SUn o _ => if is_sign o then True else q <= ulev o -> head_le 3 rest
    | _ => True
    end.
  Definition eff (q : nat) (e : sexpr) : nat :=
    match e with
    | SBin o _ _ => if is_pow o then 9 else if q <=? blev o then blev o else 9
    | SUn o _ => if q <=? ulev o then ulev o else 9
    | _ => 9
    end.
  Definition bare (q : nat) (e : sexpr) : bool :=
    match e with
    | SUn o _ => q <=? ulev o
    | SBin o _ _ => q <=? blev o
    | SIf _ _ _ _ => q <=? 1
    | _ => true
    end.
  Definition primlike (q : nat) (e : sexpr) : bool :=
    match e with
    | SUn _ _ | SBin _ _ _ | SIf _ _ _ _ => negb (bare q e)
    | _ => true
    end.
  (* rule expr does not read `if`: MainP claims nothing for a bare one *)
  Definition ifok (q : nat) (e : sexpr) : Prop :=
    match e with SIf _ _ _ _ => 2 <= q | _ => True end.

  Lemma ifok_ge2 q e : 2 <= q -> ifok q e.
  Proof. destruct e; cbn; auto. Qed.
  Lemma eff_ge q e : q <= 9 -> q <= eff q e.
  Proof.
    intros. destruct e; cbn [eff]; try lia.
    - destruct (Nat.leb_spec q (ulev o)); lia.
    - destruct (is_pow o); [lia|]. destruct (Nat.leb_spec q (blev o)); lia.
  Qed.
  Lemma pr_bare q e : pr q e = if bare q e then pr 0 e else paren (pr 0 e).
  Proof. destruct e; reflexivity. Qed.
  Lemma bare_0 e : bare 0 e = true.
  Proof. destruct e; reflexivity. Qed.
  Lemma primlike9 e : primlike 9 e = true.
  Proof. destruct e; try reflexivity; destruct o; reflexivity. Qed.

  Lemma top_ok_of_head q e rest p : p <= q -> (q <= 4 -> p <= 3) -> head_le p rest -> top_ok q e rest.
  Proof.
    intros Hp H4 Hh. destruct e; cbn [top_ok]; auto.
    - destruct o; cbn [is_sign ulev]; auto; intros Hq; apply (head_le_mono p); (lia || exact Hh).
    - destruct (is_pow o); auto. intros Hq. eapply head_le_mono; [|exact Hh]. lia.
  Qed.
  Lemma top_ok_closing q e rest : closing rest -> top_ok q e rest.
  Proof. intros H. apply (top_ok_of_head _ _ _ 0); [lia | lia | apply closing_head_le, H]. Qed.
  Lemma top_ok_rp q e rest : top_ok q e (TRp :: rest).
  Proof. exact (top_ok_closing q e (TRp :: rest) I). Qed.
  Lemma top_ok_nil q e : top_ok q e [].
  Proof. exact (top_ok_closing q e [] I). Qed.

  (* The left operand of a binary operator is read by the loop of the enclosing `expr`, not by a recursive
     call: hence the continuation-passing style of MainP and SignP. *)
  Definition PrimP (e : sexpr) : Prop := forall q rest, primlike q e = true -> nolp rest ->
    Run MPrimary (pr q e ++ rest) (RE (rs None e), rest).
  Definition MainP (e : sexpr) : Prop := forall q lvl rest res,
    ifok q e -> lvl <= eff q e -> top_ok q e rest -> rest_ok rest ->
    Run (MLoop lvl (rs None e)) rest res -> Run (MExpr lvl) (pr q e ++ rest) res.
  Definition SignP (e : sexpr) : Prop := forall o lvl rest res,
    is_sign o = true -> lvl <= 7 -> rest_ok rest ->
    Run (MLoop lvl (rs (Some o) e)) rest res -> Run (MExpr lvl) (TSym o :: pr 7 e ++ rest) res.
  Definition ExprP (e : sexpr) : Prop := forall rest, closing rest ->
    Run MExpression (pr 0 e ++ rest) (RE (rs None e), rest).
  Definition All (e : sexpr) : Prop := PrimP e /\ MainP e /\ SignP e /\ ExprP e.

  Lemma Prim_paren_E body x rest :
    Run MExpression (body ++ TRp :: rest) (RE x, TRp :: rest) -> Run MPrimary (paren body ++ rest) (RE x, rest).
  Proof.
    intros [f H]. unfold paren. cbn [app]. rewrite <- app_assoc. cbn [app].
    unf f. rewrite H. reflexivity.
  Qed.

  Lemma Expr_of_level0 e :
    (forall rest res, top_ok 0 e rest -> rest_ok rest ->
       Run (MLoop 0 (rs None e)) rest res -> Run (MExpr 0) (pr 0 e ++ rest) res) -> ExprP e.
  Proof.
    intros H rest Hc. apply Run_expression.
    apply H; [apply top_ok_closing, Hc | apply closing_rest_ok, Hc | apply Loop_stop_closing, Hc].
  Qed.

  Lemma Prim_of_Expr e : (forall q, primlike q e = negb (bare q e)) -> ExprP e -> PrimP e.
  Proof.
    intros Hpl HE q rest Hp Hn. rewrite pr_bare. rewrite Hpl in Hp. destruct (bare q e); [discriminate|].
    apply Prim_paren_E, HE. exact I.
  Qed.

  Lemma Main_of_Prim e q lvl rest res :
    PrimP e -> primlike q e = true -> rest_ok rest ->
    Run (MLoop lvl (rs None e)) rest res -> Run (MExpr lvl) (pr q e ++ rest) res.
  Proof.
    intros HP Hp Hr HL.
    eapply Run_expr_prim; [apply HP; [exact Hp|apply rest_ok_nolp, Hr] | exact Hr | exact HL].
  Qed.

  Lemma Main_operand e q lvl p rest :
    MainP e -> 2 <= q <= 9 -> p < lvl <= q -> head_le p rest -> rest_ok rest ->
    Run (MExpr lvl) (pr q e ++ rest) (RE (rs None e), rest).
  Proof.
    intros HM Hq Hl Hh Hr.
    apply HM; [apply ifok_ge2; lia | pose proof (eff_ge q e); lia
              | apply (top_ok_of_head _ _ _ p); [lia | lia | exact Hh] | exact Hr
              | apply (Loop_stop_le p); [exact Hh | lia]].
  Qed.

  Lemma sign_facts o : is_sign o = true -> ulev o = 6 /\ uq o = 7 /\ ppre t o = Some (9, LSigned).
  Proof. rewrite ppre_t. destruct o; try discriminate; auto. Qed.

  Definition plain (e : sexpr) : Prop :=
    match e with SBin o _ _ => is_mul o = false | _ => True end.
  Lemma ulev_le6 o : ulev o <= 6.
  Proof. destruct o; cbn; repeat constructor. Qed.
  Lemma nonmul_blev o : is_mul o = false -> is_pow o = false -> blev o <= 6.
  Proof. destruct o; try discriminate; intros _ _; cbn; repeat constructor. Qed.
  Lemma plain_operand e rest : plain e -> eff 7 e = 9 /\ top_ok 7 e rest.
  Proof.
    destruct e as [| |o ?|o ? ?| |]; cbn [plain eff top_ok]; intros Hm; try (split; [reflexivity | exact I]).
    - pose proof (ulev_le6 o). destruct (Nat.leb_spec 7 (ulev o)); [lia|].
      split; [reflexivity|]. destruct (is_sign o); [exact I | lia].
    - destruct (is_pow o) eqn:Hp; [split; [reflexivity | exact I]|].
      pose proof (nonmul_blev o Hm Hp). destruct (Nat.leb_spec 7 (blev o)); [lia|]. split; [reflexivity | lia].
  Qed.
  Lemma Sign_of_Main e : plain e -> MainP e -> SignP e.
  Proof.
    intros Hm HM o lvl rest res Hs Hl Hr HL. destruct (plain_operand e rest Hm) as [He Ht].
    apply (Run_expr_prefix o 9 LSigned _ _ (rs None e) rest); [apply sign_facts, Hs | | ].
    - apply HM; [apply ifok_ge2; lia | rewrite He; lia | exact Ht | exact Hr
                | apply (Loop_stop_le 7); [apply head_le_7 | lia]].
    - replace (Un o (rs None e)) with (rs (Some o) e); [exact HL|].
      destruct e; try reflexivity. cbn [rs plain] in *. rewrite Hm. reflexivity.
  Qed.

  Lemma All_primary e : (forall q, primlike q e = true) -> PrimP e -> All e.
  Proof.
    intros Hp HP.
    assert (HM : MainP e) by (intros q lvl rest res _ _ _ Hr HL; apply Main_of_Prim; auto).
    assert (Hk : plain e /\ forall q, ifok q e) by (destruct e; try discriminate (Hp 0); split; intros; exact I).
    split; [exact HP|]. split; [exact HM|]. split; [apply Sign_of_Main; [apply Hk | exact HM]|].
    apply Expr_of_level0. intros rest res. apply HM; [apply Hk | lia].
  Qed.

  Lemma All_operator e :
    (forall q, primlike q e = negb (bare q e)) ->
    (forall q lvl rest res, bare q e = true -> lvl <= eff q e -> top_ok q e rest -> rest_ok rest ->
        Run (MLoop lvl (rs None e)) rest res -> Run (MExpr lvl) (pr 0 e ++ rest) res) ->
    (MainP e -> SignP e) -> All e.
  Proof.
    intros Hpl NP HS.
    assert (HE : ExprP e).
    { apply Expr_of_level0. intros rest res. apply (NP 0 0); [apply bare_0 | lia]. }
    assert (HP : PrimP e) by exact (Prim_of_Expr e Hpl HE).
    assert (HM : MainP e).
    { intros q lvl rest res _ Hl Ht Hr HL. destruct (bare q e) eqn:Hb.
      - rewrite pr_bare, Hb. apply (NP q); assumption.
      - apply Main_of_Prim; auto. rewrite Hpl, Hb. reflexivity. }
    split; [exact HP|]. split; [exact HM|]. split; [exact (HS HM) | exact HE].
  Qed.

  Lemma pow_facts o : is_pow o = true -> lq o = 9 /\ rq o = 9 /\ is_mul o = false.
  Proof. destruct o; try discriminate; auto. Qed.
  Lemma bin_facts o : is_binop o = true -> is_pow o = false ->
    rq o = S (blev o) /\ pbin t o = Some (blev o, blabel o) /\
    2 <= blev o <= 7 /\ blev o <> 4 /\ blev o <= lq o <= S (blev o).
  Proof.
    intros Hb Hp. split; [unfold rq; rewrite Hp; reflexivity|].
    split; [rewrite pbin_t; unfold pbin_spec; rewrite Hb, Hp; reflexivity|].
    destruct o; try discriminate; cbn; repeat split; try discriminate; repeat constructor.
  Qed.
  Lemma mul_facts o : is_mul o = true ->
    blev o = 7 /\ lq o = 7 /\ rq o = 8 /\ is_pow o = false /\ pbin t o = Some (7, LMul).
  Proof. rewrite pbin_t. destruct o; try discriminate; repeat split. Qed.

  Lemma case_atom a : All (SAtom a).
  Proof.
    apply All_primary; [reflexivity|].
    intros q rest _ Hn. cbn [pr app rs wrap]. apply Run_primary_atom, Hn.
  Qed.

  Lemma case_par e1 : All e1 -> All (SPar e1).
  Proof.
    intros (_ & _ & _ & E1). apply All_primary; [reflexivity|].
    intros q rest _ Hn. cbn [pr rs wrap]. apply Prim_paren_E. apply E1. exact I.
  Qed.

  Lemma case_sign o e1 : is_sign o = true -> All e1 -> All (SUn o e1).
  Proof.
    intros Hs (_ & _ & S1 & _). destruct (sign_facts o Hs) as (Hu & Hq & _).
    apply All_operator; [reflexivity | | apply Sign_of_Main; exact I].
    intros q lvl rest res Hb Hl _ Hr HL.
    cbn [bare] in Hb. cbn [eff] in Hl. rewrite Hb, Hu in Hl.
    cbn [pr Nat.leb app]. rewrite Hq.
    apply S1; [exact Hs | lia | exact Hr | ]. cbn [rs wrap] in HL. rewrite Hs in HL. exact HL.
  Qed.

  Lemma case_not e1 : All e1 -> All (SUn SNot e1).
  Proof.
    intros (_ & M1 & _ & _).
    apply All_operator; [reflexivity | | apply Sign_of_Main; exact I].
    intros q lvl rest res Hb Hl Hh Hr HL.
    cbn [bare ulev] in Hb. cbn [eff ulev] in Hl. rewrite Hb in Hl. apply Nat.leb_le in Hb.
    cbn [top_ok is_sign ulev] in Hh. specialize (Hh Hb).
    apply (Run_expr_prefix SNot 4 LNot _ _ (rs None e1) rest); [rewrite ppre_t; reflexivity | | exact HL].
    apply (Main_operand e1 5 4 3); [exact M1 | lia | lia | exact Hh | exact Hr].
  Qed.

  Lemma rs_none_bin o l r : rs None (SBin o l r) = Bin o (rs None l) (rs None r).
  Proof. cbn [rs wrap]. destruct (is_mul o); reflexivity. Qed.

  Lemma case_pow o l r : is_pow o = true -> All l -> All r -> All (SBin o l r).
  Proof.
    intros Hpw (PL & _) (PR & _). destruct (pow_facts o Hpw) as (Hlq & Hrq & Hm).
    apply All_operator; [reflexivity | | apply Sign_of_Main; exact Hm].
    intros q lvl rest res _ _ _ Hr HL.
    cbn [pr Nat.leb]. rewrite Hlq, Hrq, <- app_assoc. cbn [app]. rewrite rs_none_bin in HL.
    (* not an instance of case_bin: the alternative is `primary op primary`, the loop reads neither operand *)
    eapply Run_expr_pow; [apply PL; [apply primlike9|exact I] | exact Hpw
                         | apply PR; [apply primlike9|apply rest_ok_nolp, Hr] | exact HL].
  Qed.

  Lemma Sign_product o l r : is_mul o = true -> SignP l -> MainP r -> SignP (SBin o l r).
  Proof.
    intros Hm SL MR s lvl rest res Hs Hl Hr HL.
    destruct (mul_facts o Hm) as (Hb & Hlq & Hrq & Hpw & Hpb).
    cbn [pr]. rewrite Hb, Hlq, Hrq. cbn [Nat.leb]. rewrite <- app_assoc. cbn [app].
    apply SL; [exact Hs | exact Hl | exact Hpw |].
    eapply Loop_step; [exact Hpb | exact Hl | | ].
    - apply (Main_operand r 8 8 7); [exact MR | lia | lia | apply head_le_7 | exact Hr].
    - cbn [rs] in HL. rewrite Hm in HL. exact HL.
  Qed.

  Lemma case_bin o l r : is_binop o = true -> is_pow o = false -> All l -> All r -> All (SBin o l r).
  Proof.
    intros Hbo Hpw (_ & ML & SL & _) (_ & MR & _).
    destruct (bin_facts o Hbo Hpw) as (Hrq & Hpb & Hb & Hb4 & Hlq).
    apply All_operator; [reflexivity | | ].
    - intros q lvl rest res Hq Hl Hh Hr HL.
      cbn [bare] in Hq. cbn [eff] in Hl. rewrite Hpw, Hq in Hl. apply Nat.leb_le in Hq.
      cbn [top_ok] in Hh. rewrite Hpw in Hh. specialize (Hh Hq).
      cbn [pr Nat.leb]. rewrite <- app_assoc. cbn [app]. rewrite rs_none_bin in HL.
      (* l is read by this same loop, up to o; the continuation takes o and r and goes on *)
      apply (ML (lq o)).
      + apply ifok_ge2; lia.
      + pose proof (eff_ge (lq o) l). lia.
      + apply (top_ok_of_head _ _ _ (blev o)); [lia | lia | cbn [head_le]; rewrite Hpb; lia].
      + exact Hpw.
      + eapply Loop_step; [exact Hpb | exact Hl | | exact HL].
        rewrite Hrq. apply (Main_operand r _ _ (blev o)); [exact MR | lia | lia | exact Hh | exact Hr].
    - intros HM. destruct (is_mul o) eqn:Hm.
      + apply Sign_product; assumption.
      + apply Sign_of_Main; [exact Hm | exact HM].
  Qed.

  Lemma Run_mif_else acc ts c r1 b r2 e r3 :
    Run MExpression ts (RE c, TThen :: r1) -> Run MExpression r1 (RE b, TElse :: r2) ->
    Run MExpression r2 (RE e, r3) -> Run (MIf acc) ts (RL (acc ++ [c; b; e]), r3).
  Proof.
    intros [f1 A]%Run_lift [f2 B]%Run_lift [f3 C]%Run_lift.
    unf (f1 + f2 + f3). rewrite A, B, C by lia. reflexivity.
  Qed.
  Lemma Run_mif_elseif acc ts c r1 b r2 res :
    Run MExpression ts (RE c, TThen :: r1) -> Run MExpression r1 (RE b, TElseif :: r2) ->
    Run (MIf (acc ++ [c; b])) r2 res -> Run (MIf acc) ts res.
  Proof.
    intros [f1 A]%Run_lift [f2 B]%Run_lift [f3 C]%Run_lift.
    unf (f1 + f2 + f3). rewrite A, B by lia. apply C. lia.
  Qed.
  Lemma Run_if_top r all r' :
    Run (MIf []) r (RL all, r') -> Run MExpression (TIf :: r) (RE (mk_if all), r').
  Proof. intros [f H]. unf f. rewrite H. reflexivity. Qed.

  Fixpoint flat (el : list (sexpr * sexpr)) : list expr :=
    match el with [] => [] | (c', b') :: r => rs None c' :: rs None b' :: flat r end.

  Lemma every2_cons2 {A} (a b : A) l : every2 (a :: b :: l) = a :: every2 l.
  Proof. reflexivity. Qed.
  Lemma every2_flat el : every2 (flat el) = map (fun p => let '(c', _) := p in rs None c') el.
  Proof.
    induction el as [|[c' b'] el IH]; [reflexivity|].
    cbn [flat map]. rewrite every2_cons2, IH. reflexivity.
  Qed.
  Lemma every2_odd el : forall x e,
    every2 (x :: flat el ++ [e]) = x :: map (fun p => let '(_, b') := p in rs None b') el.
  Proof.
    induction el as [|[c' b'] el IH]; intros x e; [reflexivity|].
    cbn [flat map app]. rewrite every2_cons2, IH. reflexivity.
  Qed.
  Lemma last1_last {A} (l : list A) e : last1 (l ++ [e]) = [e].
  Proof. unfold last1. rewrite rev_app_distr. reflexivity. Qed.
  Lemma mk_if_flat c th el e :
    mk_if (c :: th :: flat el ++ [e]) =
    IfE (c :: map (fun p => let '(c', _) := p in rs None c') el)
        (th :: map (fun p => let '(_, b') := p in rs None b') el ++ [e]).
  Proof.
    unfold mk_if.
    pose proof (removelast_last (c :: th :: flat el) e) as HR. cbn [app] in HR. rewrite HR.
    pose proof (last1_last (c :: th :: flat el) e) as HL. cbn [app] in HL. rewrite HL.
    cbn [tl]. rewrite every2_cons2, every2_flat, every2_odd. reflexivity.
  Qed.

  Lemma Run_mif_gen e rest : ExprP e -> closing rest ->
    forall el acc c b, ExprP c -> ExprP b -> Forall (fun p => ExprP (fst p) /\ ExprP (snd p)) el ->
    Run (MIf acc)
        (pr 0 c ++ TThen :: pr 0 b
         ++ concat (map (fun p => let '(c', b') := p in TElseif :: pr 0 c' ++ TThen :: pr 0 b') el)
         ++ TElse :: pr 0 e ++ rest)
        (RL (acc ++ rs None c :: rs None b :: flat el ++ [rs None e]), rest).
  Proof.
    intros EE Hc. induction el as [|[c' b'] el IH]; intros acc c b EC EB HF; cbn [map concat flat app].
    - eapply Run_mif_else; [apply EC; exact I | apply EB; exact I | apply EE; exact Hc].
    - inversion HF as [|p l0 [EC' EB'] HF']; subst. cbn [fst snd] in *.
      rewrite <- app_assoc. cbn [app]. rewrite <- app_assoc.
      eapply Run_mif_elseif; [apply EC; exact I | apply EB; exact I | ].
      specialize (IH (acc ++ [rs None c; rs None b]) c' b'). rewrite <- app_assoc in IH.
      apply IH; auto.
  Qed.

  Lemma case_if c th el e :
    ExprP c -> ExprP th -> Forall (fun p => ExprP (fst p) /\ ExprP (snd p)) el -> ExprP e ->
    All (SIf c th el e).
  Proof.
    intros EC ET HF' EE.
    assert (HE : ExprP (SIf c th el e)).
    { intros rest Hc. cbn [pr Nat.leb rs wrap app]. rewrite <- app_assoc. cbn [app].
      rewrite <- !app_assoc. cbn [app]. rewrite <- mk_if_flat.
      apply Run_if_top. apply (Run_mif_gen e rest EE Hc el [] c th EC ET HF'). }
    assert (HP : PrimP (SIf c th el e)) by (apply Prim_of_Expr; [reflexivity | exact HE]).
    assert (HM : MainP (SIf c th el e)).
    { intros q lvl rest res Hi _ _ Hr HL. apply Main_of_Prim; auto.
      cbn [ifok] in Hi. cbn [primlike bare]. destruct (Nat.leb_spec q 1); [lia|reflexivity]. }
    split; [exact HP|]. split; [exact HM|]. split; [apply Sign_of_Main; [exact I | exact HM] | exact HE].
  Qed.

  Lemma Run_args_last acc ts e r :
    Run MExpression ts (RE e, TRp :: r) -> Run (MArgs acc) ts (RL (acc ++ [e]), r).
  Proof. intros [f H]. unf f. rewrite H. reflexivity. Qed.
  Lemma Run_args_comma acc ts e r res :
    Run MExpression ts (RE e, TComma :: r) -> Run (MArgs (acc ++ [e])) r res -> Run (MArgs acc) ts res.
  Proof.
    intros [f1 A]%Run_lift [f2 B]%Run_lift. unf (f1 + f2). rewrite A by lia. apply B. lia.
  Qed.
  Lemma Run_primary_call f r a r' :
    Run (MArgs []) r (RL a, r') -> Run MPrimary (ftoks f ++ r) (RE (Call f a), r').
  Proof. intros [n H]. destruct f; cbn [ftoks app]; unf n; rewrite H; reflexivity. Qed.

  Lemma Run_args rest : forall args acc, args <> [] -> Forall ExprP args ->
    Run (MArgs acc) (join (map (pr 0) args) ++ TRp :: rest) (RL (acc ++ map (rs None) args), rest).
  Proof.
    induction args as [|a args IH]; intros acc Hne HF; [contradiction|].
    inversion HF as [|x l0 EA HF']; subst.
    destruct args as [|a2 args].
    - cbn [map join]. apply Run_args_last. apply EA. exact I.
    - change (join (map (pr 0) (a :: a2 :: args)))
        with (pr 0 a ++ TComma :: join (map (pr 0) (a2 :: args))).
      rewrite <- app_assoc. cbn [app].
      eapply Run_args_comma; [apply EA; exact I|].
      specialize (IH (acc ++ [rs None a])). rewrite <- app_assoc in IH.
      apply IH; [discriminate|exact HF'].
  Qed.

  Lemma case_call f args : args <> [] -> Forall ExprP args -> All (SCall f args).
  Proof.
    intros Hne HF'.
    apply All_primary; [reflexivity|]. intros q rest _ Hn.
    change (pr q (SCall f args)) with (ftoks f ++ join (map (pr 0) args) ++ [TRp]).
    change (rs None (SCall f args)) with (Call f (map (rs None) args)).
    rewrite <- app_assoc. rewrite <- app_assoc. cbn [app].
    apply Run_primary_call. apply (Run_args rest args [] Hne HF').
  Qed.

  Lemma all_ok : forall e, wf e = true -> All e.
  Proof.
    apply (sexpr_ind' (fun e => wf e = true -> All e)); cbv beta; cbn [wf].
    - intros a _. apply case_atom.
    - intros e1 IH1 Hw. apply case_par; auto.
    - intros o e1 IH1 [Hu Hw]%andb_true_iff. destruct (is_sign o) eqn:Hs.
      + apply case_sign; auto.
      + assert (o = SNot) by (destruct o; try discriminate; reflexivity). subst o.
        apply case_not; auto.
    - intros o l r IHl IHr [[Hb Hwl]%andb_true_iff Hwr]%andb_true_iff.
      destruct (is_pow o) eqn:Hp; [apply case_pow | apply case_bin]; auto.
    - intros c th el e IHc IHt IHel IHe [[[Hwc Hwt]%andb_true_iff Hwel]%andb_true_iff Hwe]%andb_true_iff.
      apply case_if; [apply IHc, Hwc | apply IHt, Hwt | | apply IHe, Hwe].
      rewrite Forall_forall in IHel. rewrite forallb_forall in Hwel.
      apply Forall_forall. intros [c' b'] Hin.
      destruct (IHel _ Hin) as [A B]. destruct (proj1 (andb_true_iff _ _) (Hwel _ Hin)) as [W1 W2].
      split; [apply A, W1 | apply B, W2].
    - intros f args IH [Hne Hall]%andb_true_iff. apply case_call.
      + destruct args; [discriminate Hne | discriminate].
      + rewrite Forall_forall in IH. rewrite forallb_forall in Hall.
        apply Forall_forall. intros a Hin. apply IH; auto.
  Qed.

  Theorem roundtrip_run e : wf e = true -> Run MExpression (pr 0 e) (RE (resign e), []).
  Proof.
    intros Hw. destruct (all_ok e Hw) as (_ & _ & _ & HE).
    rewrite <- (app_nil_r (pr 0 e)). apply (HE []). exact I.
  Qed.
End Roundtrip.

Theorem roundtrip_fuel (t : table) (lt : ltable) (e : sexpr) :
  tab_ok t = true -> listener_ok lt = true -> wf e = true ->
  exists fuel, forall F, fuel <= F -> parse_antlr t lt F (pr 0 e) = Some (resign e).
Proof.
  intros Ht Hl Hw. apply listener_ok_eq in Hl. subst lt.
  destruct (Run_lift t _ _ _ (roundtrip_run t Ht e Hw)) as [f H].
  exists f. intros F HF. unfold parse_antlr. rewrite (H F HF). reflexivity.
Qed.

Theorem roundtrip (t : table) (lt : ltable) (e : sexpr) :
  tab_ok t = true -> listener_ok lt = true -> wf e = true ->
  exists fuel, parse_antlr t lt fuel (pr 0 e) = Some (resign e).
Proof.
  intros Ht Hl Hw. destruct (roundtrip_fuel t lt e Ht Hl Hw) as [f H]. exists f. apply H, le_n.
Qed.

Print Assumptions roundtrip.
Print Assumptions roundtrip_fuel.
