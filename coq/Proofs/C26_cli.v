(* C26 — proofs about Model/C26_cli.v.  Stdlib only. *)
From Coq Require Import List Arith Bool Permutation.
Import ListNotations.
From PV Require Import Model.C26_cli.

(* hypothesis carving the one recorded defect class: every exception escaping
   pymoca.parser.parse / open() for a listed file is of a class parse_file catches
   (vacuous for the casadi branch, which does not parse) *)
Definition file_caught (sk : skel) (p : pres) : Prop :=
  match p with PExc e => catches (h_parse sk) e = true | _ => True end.
Definition parse_caught (sk : skel) (f : facts) : Prop :=
  f_target f <> TCasadi -> Forall (file_caught sk) (f_files f).

Lemma forallb_all_exc (p : exc -> bool) : forallb p all_exc = true -> forall e, p e = true.
Proof. rewrite forallb_forall. intros H e. apply H. destruct e; simpl; auto 10. Qed.

Lemma broad_catches hs e : broad hs = true -> catches hs e = true.
Proof. intros H. exact (forallb_all_exc (catches hs) H e). Qed.

Record skel_facts (sk : skel) : Prop := SkelFacts {
  ok_combo : k_combo_first sk = true;
  ok_outdir : k_outdir sk = 1;
  ok_path : k_path sk = 1;
  ok_opt : k_opt sk = 1;
  ok_nofiles_s : k_nofiles_s sk = 1;
  ok_parse : k_parse sk = ILenErr;
  ok_translate : k_translate sk = 1;
  ok_flatten : k_flatten sk = 1;
  ok_nofiles_c : k_nofiles_c sk = 1;
  ok_ambig : k_ambig sk = 0;
  ok_nodir : k_nodir sk = 1;
  ok_transfer : k_transfer sk = 1;
  ok_h_flatten : forall e, catches (h_flatten sk) e = true;
  ok_h_transfer : forall e, catches (h_transfer sk) e = true;
  ok_h_translate : forall e, existsb (fun hs => catches hs e) (h_translate sk) = true }.

Lemma skel_ok_facts sk : skel_ok sk = true -> skel_facts sk.
Proof.
  unfold skel_ok. intros H.
  repeat (apply andb_true_iff in H; destruct H as [H ?]).
  repeat match goal with X : (_ =? _) = true |- _ => apply Nat.eqb_eq in X end.
  destruct (k_parse sk) eqn:Ek; try discriminate.
  constructor; auto using broad_catches.
  apply (forallb_all_exc (fun e => existsb (fun hs => catches hs e) (h_translate sk))). assumption.
Qed.

Lemma sum_app l1 l2 : sum (l1 ++ l2) = sum l1 + sum l2.
Proof. exact (list_sum_app l1 l2). Qed.

Lemma sum_indicator {A} (q : A -> bool) l :
  sum (map (fun x => if q x then 1 else 0) l) = length (filter q l).
Proof. induction l as [|x l IH]; simpl; [reflexivity|]. destruct (q x); simpl; congruence. Qed.

Lemma sum_flags (l : list bool) :
  sum (map (fun b : bool => if b then 0 else 1) l) = length (filter negb l).
Proof. rewrite <- sum_indicator. f_equal. apply map_ext. intros []; reflexivity. Qed.

Lemma filter_len0 {A} (p : A -> bool) (P : A -> Prop) l :
  (forall x, p x = false <-> P x) -> length (filter p l) = 0 <-> Forall P l.
Proof.
  intros HP. induction l as [|x l IH]; simpl.
  - split; auto.
  - destruct (p x) eqn:E; simpl.
    + split; [discriminate|]. intros H. inversion H as [|? ? Hx _]; subst.
      apply HP in Hx. congruence.
    + rewrite IH. split; intros H; [constructor; [apply HP, E|exact H]|inversion H; assumption].
Qed.

Lemma filter_all {A} (p : A -> bool) l : Forall (fun x => p x = true) l -> filter p l = l.
Proof. induction 1; simpl; [reflexivity|]. rewrite H. f_equal. assumption. Qed.

Lemma usage_ok sk f : skel_facts sk -> usage_errors sk f = usage_count f.
Proof.
  intros K. unfold usage_errors, usage_count.
  rewrite (ok_outdir sk K), (ok_path sk K), (ok_opt sk K), !sum_flags. reflexivity.
Qed.

Lemma parse_all_ok sk fs n : Forall (file_caught sk) fs ->
  parse_all (h_parse sk) fs n = inl (n + length (filter bad_file fs)).
Proof.
  revert n. induction fs as [|p fs IH]; intros n H; simpl.
  - rewrite Nat.add_0_r. reflexivity.
  - inversion H as [|? ? Hp Hfs]; subst. destruct p as [| |e]; simpl.
    + apply IH, Hfs.
    + rewrite (IH _ Hfs), Nat.add_succ_r. reflexivity.
    + rewrite Hp, (IH _ Hfs), Nat.add_succ_r. reflexivity.
Qed.

Lemma loop_m_sum step g ms n : (forall m, step m = inl (g m)) ->
  loop_m step ms n = Exit (n + sum (map g ms)).
Proof.
  intros H. revert n. induction ms as [|m ms IH]; intros n; simpl.
  - rewrite Nat.add_0_r. reflexivity.
  - rewrite H, IH, Nat.add_assoc. reflexivity.
Qed.

(* the file-search loop only depends on how many files are named like the model *)
Lemma find_dir_count ka ms have :
  find_dir ka ms have =
    let c := count_true ms + (if have then 1 else 0) in
    (c =? 1, if 2 <=? c then ka else 0).
Proof.
  revert have. induction ms as [|b ms IH]; intros have; simpl.
  - destruct have; reflexivity.
  - destruct b; unfold count_true in *; cbn [filter length].
    + destruct have.
      * cbv zeta. rewrite Nat.add_1_r. reflexivity.
      * rewrite IH. cbv zeta. rewrite Nat.add_0_r, Nat.add_1_r. reflexivity.
    + apply IH.
Qed.

Lemma step_casadi_ok sk : skel_facts sk -> forall m, step_casadi sk m = inl (contrib TCasadi m).
Proof.
  intros K m. unfold step_casadi, contrib, model_fails.
  rewrite find_dir_count, (ok_ambig sk K), (ok_nodir sk K), (ok_transfer sk K). cbv zeta.
  rewrite Nat.add_0_r.
  replace (if 2 <=? count_true (m_match m) then 0 else 0) with 0
    by (destruct (2 <=? count_true (m_match m)); reflexivity).
  destruct (count_true (m_match m) =? 1); cbn [negb orb]; [|reflexivity].
  destruct (m_res m) as [|e]; cbn [res_fails]; [reflexivity|].
  rewrite (ok_h_transfer sk K e). reflexivity.
Qed.

Lemma step_flatten_ok sk : skel_facts sk -> forall m, step_flatten sk m = inl (contrib TNone m).
Proof.
  intros K m. unfold step_flatten, contrib, model_fails. destruct (m_res m) as [|e]; [reflexivity|].
  rewrite (ok_h_flatten sk K e), (ok_flatten sk K). reflexivity.
Qed.

Lemma step_sympy_ok sk : skel_facts sk -> forall m, step_sympy sk m = inl (contrib TSympy m).
Proof.
  intros K m. unfold step_sympy, translate, contrib, model_fails. destruct (m_res m) as [|e]; [reflexivity|].
  rewrite (ok_h_translate sk K e), (ok_translate sk K). reflexivity.
Qed.

(* the flatten / sympy branch of main_with once the increments are those of a good table,
   for any per-model step that cannot raise *)
Lemma parse_branch sk step g fs ms :
  Forall (file_caught sk) fs ->
  (forall m, step m = inl (g m)) ->
  match parse_all (h_parse sk) fs 0 with
  | inr e => Raises e
  | inl nerr =>
      let e2 := if is_nil fs then 1 else if nerr =? 0 then 0 else nerr in
      if (e2 =? 0) && negb (is_nil ms) then loop_m step ms e2 else Exit e2
  end =
  Exit (if is_nil fs then 1
        else if negb (length (filter bad_file fs) =? 0) then length (filter bad_file fs)
        else sum (map g ms)).
Proof.
  intros Hf Hstep. rewrite (parse_all_ok sk fs 0 Hf). cbn [Nat.add].
  destruct fs as [|p fs]; [reflexivity|]. cbv zeta. cbn [is_nil].
  destruct (length (filter bad_file (p :: fs)) =? 0) eqn:En; cbn [negb].
  - destruct ms as [|m ms]; [reflexivity|]. cbn [Nat.eqb andb is_nil negb].
    rewrite (loop_m_sum step g) by exact Hstep. reflexivity.
  - rewrite En. reflexivity.
Qed.

Theorem count_correct sk f : skel_ok sk = true -> parse_caught sk f ->
  main_with sk f = Exit (count f).
Proof.
  intros Hs Hp. apply skel_ok_facts in Hs as K.
  unfold main_with, count. cbv zeta. rewrite (ok_combo sk K). cbn [andb].
  destruct (f_argparse f); try reflexivity.
  destruct (negb (is_tnone (f_target f)) && is_nil (f_models f)); [reflexivity|].
  rewrite (usage_ok sk f K).
  destruct (usage_count f =? 0); cbn [negb]; [|reflexivity].
  unfold parse_count, parse_caught in *. rewrite (ok_nofiles_s sk K), (ok_parse sk K).
  destruct (f_target f).
  - apply parse_branch; [apply Hp; discriminate|apply step_flatten_ok, K].
  - apply parse_branch; [apply Hp; discriminate|apply step_sympy_ok, K].
  - destruct (f_files f); cbn [is_nil].
    + rewrite (ok_nofiles_c sk K). reflexivity.
    + cbn [Nat.eqb negb]. apply (loop_m_sum _ (contrib TCasadi)), step_casadi_ok, K.
Qed.

Corollary count_total sk : skel_ok sk = true -> parse_broad sk = true ->
  forall f, main_with sk f = Exit (count f).
Proof.
  intros Hs Hb f. apply count_correct; [exact Hs|].
  intros _. apply Forall_forall. intros [| |e] _; simpl; auto. apply broad_catches, Hb.
Qed.

Lemma head_skel_ok : skel_ok head_skel = true.
Proof. vm_compute. reflexivity. Qed.

Lemma head_parse_broad : parse_broad head_skel = true.
Proof. vm_compute. reflexivity. Qed.

Definition full_success (f : facts) : Prop :=
  match f_argparse f with
  | AError => False
  | AExit0 => True                                   (* --version / --help *)
  | AOk =>
    (f_target f <> TNone -> f_models f <> []) /\
    f_outdir_ok f = true /\ Forall (fun b => b = true) (f_paths f) /\ Forall (fun b => b = true) (f_opts f) /\
    f_files f <> [] /\
    (f_target f <> TCasadi -> Forall (fun p => p = POk) (f_files f)) /\
    Forall (fun m => model_fails (f_target f) m = false) (f_models f)
  end.

Lemma combo_false f :
  negb (is_tnone (f_target f)) && is_nil (f_models f) = false <->
  (f_target f <> TNone -> f_models f <> []).
Proof.
  destruct (f_models f) as [|m ms].
  - rewrite andb_true_r. destruct (f_target f); simpl.
    + split; [intros _ X; contradiction|reflexivity].
    + split; [discriminate|intros H; exfalso; apply H; [discriminate|reflexivity]].
    + split; [discriminate|intros H; exfalso; apply H; [discriminate|reflexivity]].
  - rewrite andb_false_r. split; [intros _ _; discriminate|reflexivity].
Qed.

Lemma usage_count0 f :
  usage_count f = 0 <->
  f_outdir_ok f = true /\ Forall (fun b => b = true) (f_paths f) /\ Forall (fun b => b = true) (f_opts f).
Proof.
  assert (N : forall b, negb b = false <-> b = true) by (intros []; simpl; split; congruence).
  unfold usage_count. split.
  - intros H. destruct (f_outdir_ok f); [|discriminate H]. apply Nat.eq_add_0 in H as [Hp Hq].
    apply (filter_len0 negb _ _ N) in Hp, Hq. auto.
  - intros (Ho & Hp & Hq). apply (filter_len0 negb _ _ N) in Hp, Hq. rewrite Ho, Hp, Hq. reflexivity.
Qed.

Lemma parse_count0 f :
  parse_count f = 0 <-> (f_target f <> TCasadi -> Forall (fun p => p = POk) (f_files f)).
Proof.
  assert (B : forall p, bad_file p = false <-> p = POk) by (intros []; simpl; split; congruence).
  unfold parse_count. rewrite <- (filter_len0 bad_file _ _ B).
  destruct (f_target f).
  - split; [intros H _; exact H|intros H; apply H; discriminate].
  - split; [intros H _; exact H|intros H; apply H; discriminate].
  - split; [intros _ X; contradiction|reflexivity].
Qed.

Lemma sum_contrib0 t ms : sum (map (contrib t) ms) = 0 <-> Forall (fun m => model_fails t m = false) ms.
Proof. unfold contrib. rewrite sum_indicator. apply filter_len0. reflexivity. Qed.

Lemma if_S_zero (b : bool) k r : (if b then S k else r) = 0 <-> b = false /\ r = 0.
Proof. destruct b; [split; [discriminate|intros [H _]; discriminate H]|tauto]. Qed.

Lemma if_nonzero x r : (if negb (x =? 0) then x else r) = 0 <-> x = 0 /\ r = 0.
Proof. destruct x; simpl; [tauto|]. split; [discriminate|intros [H _]; discriminate H]. Qed.

Theorem zero_iff f : count f = 0 <-> full_success f.
Proof.
  unfold full_success, count. destruct (f_argparse f); [|split; [discriminate|intros []]|split; auto].
  rewrite if_S_zero, if_nonzero, if_S_zero, if_nonzero. split.
  - intros (C & U & F & P & S). apply usage_count0 in U as (Ho & Hp & Hq). apply sum_contrib0 in S.
    pose proof (proj1 (combo_false f) C). pose proof (proj1 (parse_count0 f) P).
    repeat split; try assumption. intros E. rewrite E in F. discriminate F.
  - intros (C & Ho & Hp & Hq & F & P & S). apply sum_contrib0 in S.
    pose proof (proj2 (combo_false f) C). pose proof (proj2 (parse_count0 f) P).
    repeat split; try assumption.
    + apply usage_count0. auto.
    + destruct (f_files f); [contradiction|reflexivity].
Qed.

(* the invocation reaches the per-model loop *)
Definition reaches_models (f : facts) : Prop :=
  f_argparse f = AOk /\ f_models f <> [] /\ usage_count f = 0 /\ f_files f <> [] /\ parse_count f = 0.

Lemma count_models f : reaches_models f -> count f = sum (map (contrib (f_target f)) (f_models f)).
Proof.
  intros (Ha&Hm&Hu&Hf&Hp). unfold count. rewrite Ha, Hu, Hp.
  destruct (f_models f); [congruence|]. destruct (f_files f); [congruence|].
  rewrite andb_false_r. reflexivity.
Qed.

Definition with_models (f : facts) (ms : list mfacts) : facts :=
  Facts (f_argparse f) (f_target f) (f_outdir_ok f) (f_paths f) (f_opts f) (f_files f) ms.

Lemma reaches_with f ms : reaches_models f -> ms <> [] -> reaches_models (with_models f ms).
Proof. intros (Ha&Hm&Hu&Hf&Hp) H. repeat split; auto. Qed.

Theorem independent sk f : skel_ok sk = true -> parse_caught sk f -> reaches_models f ->
  main_with sk f = Exit (sum (map (contrib (f_target f)) (f_models f))).
Proof. intros Hs Hp Hr. rewrite count_correct by assumption. f_equal. apply count_models, Hr. Qed.

Lemma independent_with sk f ms : skel_ok sk = true -> parse_caught sk f -> reaches_models f -> ms <> [] ->
  main_with sk (with_models f ms) = Exit (sum (map (contrib (f_target f)) ms)).
Proof. intros Hs Hp Hr Hne. exact (independent sk (with_models f ms) Hs Hp (reaches_with f ms Hr Hne)). Qed.
