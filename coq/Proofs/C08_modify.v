(* Proofs/C08_modify.v — lemmas about the modification machinery of the flattening model (setattr order, scopes,
   one-level shift, conversion at a leaf) and about the specification's modifier entries it is compared with. *)
From Coq Require Import List ZArith Bool PArith Lia.
From PV Require Import Lib.ClassTree Model.C07_flatten Model.C08_modify Proofs.C07_flatten Lib.Inst.
Import ListNotations.

Lemma get_set a b v l :
  get_attr a (set_attr b v l) = if Pos.eqb b a then Some v else get_attr a l.
Proof.
  unfold get_attr, set_attr. induction l as [|[c w] l IH]; simpl.
  - destruct (Pos.eqb_spec b a); reflexivity.
  - destruct (Pos.eqb_spec c b) as [->|N]; simpl.
    + destruct (Pos.eqb_spec b a); reflexivity.
    + destruct (Pos.eqb_spec c a) as [->|N']; simpl.
      * destruct (Pos.eqb_spec b a); [congruence | reflexivity].
      * exact IH.
Qed.

(* modify_symbol = setattr in list order: the final value of an attribute is that of the LAST
   argument of the list that names it, else the previous value *)
Lemma apply_args_last a : forall l attrs r,
  apply_args l attrs = Ok r ->
  get_attr a r = match last_for a l with Some e => Some e | None => get_attr a attrs end.
Proof.
  induction l as [|m l IH]; intros attrs r H; cbn [apply_args last_for] in *.
  - inversion H; reflexivity.
  - destruct (negb (mem_id (head_id (m_target m)) ATTRIBUTES)) in H; [discriminate H|].
    destruct (m_mods m) as [|[e|cl] ms]; try discriminate H.
    specialize (IH _ _ H). rewrite IH.
    destruct (last_for a l); [reflexivity|].
    rewrite get_set. destruct (Pos.eqb (head_id (m_target m)) a); reflexivity.
Qed.

Lemma last_for_app a l1 l2 :
  last_for a (l1 ++ l2) = match last_for a l2 with Some e => Some e | None => last_for a l1 end.
Proof.
  induction l1 as [|m l1 IH]; simpl.
  - destruct (last_for a l2); reflexivity.
  - rewrite IH. destruct (last_for a l2); reflexivity.
Qed.

(* a VALUE modification keeps the scope of the argument it came from (tree.py:485-490, 533-538) *)
Lemma value_keeps_scope a e :
  In (MExpr e) (m_mods a) -> In (MArg (m_scope a) [aValue] [MExpr e]) (to_symbol_mods a).
Proof.
  intros H. unfold to_symbol_mods. apply in_flat_map. exists (MExpr e). split; [auto | left; reflexivity].
Qed.

Definition prepend (h : ident) (en : mentry) : mentry := match en with (p, e, w) => (h :: p, e, w) end.

Lemma flat_arg_cons env sc h t ms :
  flat_arg env (MArg sc (h :: t) ms) = map (prepend h) (flat_arg env (MArg sc t ms)).
Proof.
  cbn [flat_arg]. rewrite !flat_map_concat_map, concat_map, map_map. f_equal. apply map_ext. intros [e|l]; [reflexivity|].
  rewrite map_map. apply map_ext. intros [[p e] w]. reflexivity.
Qed.

Lemma spec_spelling env a : flat_arg env (nest a) = flat_arg env a.
Proof.
  destruct a as [sc [|n [|m rest]] ms]; try reflexivity. rewrite flat_arg_cons.
  cbn [nest flat_arg flat_map]. rewrite !app_nil_r. reflexivity.
Qed.

Lemma find_app {A} (f : A -> bool) l1 l2 :
  find f (l1 ++ l2) = match find f l1 with Some x => Some x | None => find f l2 end.
Proof. induction l1 as [|x l1 IH]; simpl; [reflexivity|]. destruct (f x); [reflexivity | exact IH]. Qed.

Lemma spec_outermost a outer inner :
  attr_lookup a (outer ++ inner) =
  match attr_lookup a outer with Some x => Some x | None => attr_lookup a inner end.
Proof. unfold attr_lookup. apply find_app. Qed.

Definition simple_arg (m : marg) : Prop := exists s a e ms, m = MArg s [a] (MExpr e :: ms) /\ a <> aValue.

Definition attr_pred (a : ident) (en : mentry) : bool :=
  match en with (p, _, _) => path_eqb p [a] || (Pos.eqb a aValue && path_eqb p []) end.
Definition entry_expr (en : mentry) : expr := snd (fst en).

Lemma attr_lookup_find a ms : attr_lookup a ms = find (attr_pred a) ms.
Proof. reflexivity. Qed.

(* the entry of an argument that starts with an expression (the other case is never looked at: the lemmas are
   about simple_arg1 lists) *)
Definition entry_of (env : option path) (m : marg) : mentry :=
  match m with MArg _ t (MExpr e :: _) => (t, e, env) | MArg _ t _ => (t, ENum 0, env) end.

(* an attribute argument with exactly one expression `a = e`, the value included: what reaches an elementary
   symbol in canonical spelling *)
Definition simple_arg1 (m : marg) : Prop := exists s a e, m = MArg s [a] [MExpr e].

Lemma flat_args_simple env l : Forall simple_arg1 l -> flat_args env l = map (entry_of env) l.
Proof.
  induction 1 as [|m l Hm Hl IH]; [reflexivity|].
  destruct Hm as [s [a [e ->]]]. unfold flat_args in *. cbn [flat_map map]. rewrite IH. reflexivity.
Qed.

Lemma last_for_find env a : forall l,
  Forall simple_arg1 l ->
  last_for a l = option_map entry_expr (find (attr_pred a) (rev (map (entry_of env) l))).
Proof.
  induction 1 as [|m l Hm Hl IH]; [reflexivity|].
  cbn [last_for map rev]. rewrite find_app, IH.
  destruct (find (attr_pred a) (rev (map (entry_of env) l))) as [en|]; [reflexivity|].
  destruct Hm as [s [a' [e ->]]].
  cbn [option_map find m_target m_mods head_id entry_of attr_pred path_eqb entry_expr].
  rewrite andb_true_r, andb_false_r, orb_false_r.
  destruct (Pos.eqb a' a); reflexivity.
Qed.

(* bridge between the model's order and the specification's order at a leaf: the model applies the
   arguments in list order by setattr (the last one naming an attribute wins); the specification looks
   the attribute up in the entries outermost first (the first match wins).  For attribute arguments
   `a = e` — what reaches an elementary symbol in dotted/canonical spelling — the two agree when the
   specification's entries are the model's list reversed. *)
Lemma apply_args_leaf env a l r :
  Forall simple_arg1 l -> apply_args l [] = Ok r ->
  get_attr a r = option_map entry_expr (attr_lookup a (rev (flat_args env l))).
Proof.
  intros Hs H. rewrite (apply_args_last a l [] r H), (flat_args_simple env l Hs), attr_lookup_find.
  rewrite <- (last_for_find env a l Hs). destruct (last_for a l); reflexivity.
Qed.

Lemma sub_app n l1 l2 : sub_mods n (l1 ++ l2) = sub_mods n l1 ++ sub_mods n l2.
Proof. unfold sub_mods. apply flat_map_app. Qed.

Lemma sub_mods_prepend n h l : sub_mods n (map (prepend h) l) = if Pos.eqb h n then l else [].
Proof.
  unfold sub_mods. induction l as [|[[p e] w] l IH]; [destruct (Pos.eqb h n); reflexivity|].
  cbn [map prepend flat_map]. rewrite IH. destruct (Pos.eqb h n); reflexivity.
Qed.

(* the model moves a dotted argument n.t(ms) to component n by dropping the first name (tree.py:542); the
   specification takes the sub-modifiers of n: the same entries, and none from an argument for another component *)
Lemma sub_mods_cons env sc n h t ms :
  sub_mods n (flat_arg env (MArg sc (h :: t) ms)) = if Pos.eqb h n then flat_arg env (MArg sc t ms) else [].
Proof. rewrite flat_arg_cons. apply sub_mods_prepend. Qed.

Definition same_entry (x y : mentry) : Prop :=
  entry_expr x = entry_expr y /\ forall a, attr_pred a x = attr_pred a y.

Lemma find_same a : forall l1 l2, Forall2 same_entry l1 l2 ->
  option_map entry_expr (find (attr_pred a) l1) = option_map entry_expr (find (attr_pred a) l2).
Proof.
  induction 1 as [|x y l1 l2 [He Hp] F IH]; [reflexivity|]. cbn [find]. rewrite <- (Hp a).
  destruct (attr_pred a x); [cbn [option_map]; rewrite He; reflexivity | exact IH].
Qed.

Lemma Forall2_refl_same l : Forall2 same_entry l l.
Proof. induction l; constructor; [split; reflexivity | assumption]. Qed.

(* the conversion at an elementary symbol (tree.py:469-492: a value becomes the argument `value = e`, the
   arguments of a class modification are taken as they are): the entries of a converted argument aimed at leaf n are,
   entry by entry, the specification's sub-modifiers of n.  For a value the model's entry has target [value], the
   specification's the empty target; attr_pred takes both for the attribute `value` and neither for another. *)
Lemma leaf_entries_same env sc n ms :
  Forall2 same_entry (sub_mods n (flat_arg env (MArg sc [n] ms))) (flat_args env (to_symbol_mods (MArg sc [n] ms))).
Proof.
  unfold to_symbol_mods, flat_args. cbn [flat_arg m_mods m_scope].
  induction ms as [|[e|l] ms IH]; [constructor| |]; cbn [flat_map]; rewrite sub_app, flat_map_app;
    (apply Forall2_app; [|exact IH]).
  - unfold sub_mods. cbn [flat_map app flat_arg]. rewrite Pos.eqb_refl. cbn [app].
    constructor; [|constructor]. split; [reflexivity|]. intros a0. cbn [attr_pred path_eqb].
    rewrite ?andb_true_r, ?andb_false_r, ?orb_false_r. cbn [orb]. apply Pos.eqb_sym.
  - rewrite (sub_mods_prepend n n), Pos.eqb_refl. apply Forall2_refl_same.
Qed.

Lemma leaf_entries_same_list env n : forall l,
  Forall (fun m => m_target m = [n]) l ->
  Forall2 same_entry (sub_mods n (flat_args env l)) (flat_args env (flat_map to_symbol_mods l)).
Proof.
  induction 1 as [|m l Hm Hl IH]; [constructor|].
  unfold flat_args in *. cbn [flat_map]. rewrite sub_app, flat_map_app.
  apply Forall2_app; [|exact IH]. destruct m as [sc t ms]. cbn [m_target] in Hm. subst t.
  apply leaf_entries_same.
Qed.

Definition uniq (l : list marg) : Prop := NoDup (map (fun m => head_id (m_target m)) l).

Lemma last_for_absent a : forall l,
  ~ In a (map (fun m => head_id (m_target m)) l) -> last_for a l = None.
Proof.
  induction l as [|m l IH]; intros H; [reflexivity|]. cbn [last_for map] in *.
  rewrite IH by (intro; apply H; right; assumption).
  destruct (Pos.eqb_spec (head_id (m_target m)) a) as [E|N]; [exfalso; apply H; left; exact E | reflexivity].
Qed.

Lemma last_for_first env a : forall l,
  Forall simple_arg1 l -> uniq l ->
  last_for a l = option_map entry_expr (attr_lookup a (flat_args env l)).
Proof.
  intros l Hs. rewrite (flat_args_simple env l Hs), attr_lookup_find.
  induction Hs as [|m l [s [a' [e ->]]] Hl IH]; intros Hu; [reflexivity|].
  inversion Hu as [|? ? Hn Hu']; subst. cbn [last_for map find entry_of attr_pred m_target m_mods head_id path_eqb] in *.
  rewrite ?andb_true_r, ?andb_false_r, ?orb_false_r.
  destruct (Pos.eqb_spec a' a) as [->|N].
  - rewrite (last_for_absent a l Hn). reflexivity.
  - rewrite (IH Hu'). destruct (find (attr_pred a) (map (entry_of env) l)); reflexivity.
Qed.

(* the list build_syms puts on an inherited elementary leaf n is
   decl ++ to_symbol_mods(clause args for n) ++ to_symbol_mods(incoming args for n) (tree.py:469-497 with the
   environment of C08_extends_clause_env); applied by setattr in list order it gives, for every attribute,
   what the specification looks up in  sub_mods n (incoming ++ clause entries) ++ declaration entries:
   the incoming (outer) environment wins over the extends clause, the clause over the base's declaration. *)
Lemma extends_leaf_attributes env n a decl clause incoming r :
  Forall (fun m => m_target m = [n]) clause -> Forall (fun m => m_target m = [n]) incoming ->
  Forall simple_arg1 decl -> Forall simple_arg1 (flat_map to_symbol_mods clause) ->
  Forall simple_arg1 (flat_map to_symbol_mods incoming) ->
  uniq decl -> uniq (flat_map to_symbol_mods clause) -> uniq (flat_map to_symbol_mods incoming) ->
  apply_args (decl ++ flat_map to_symbol_mods clause ++ flat_map to_symbol_mods incoming) [] = Ok r ->
  get_attr a r =
  option_map entry_expr
    (attr_lookup a (sub_mods n (flat_args env incoming ++ flat_args env clause) ++ flat_args env decl)).
Proof.
  intros Tc Ti Sd Sc Si Ud Uc Ui H.
  rewrite (apply_args_last a _ [] r H). rewrite !last_for_app.
  rewrite sub_app. rewrite !spec_outermost.
  rewrite (last_for_first env a _ Si Ui), (last_for_first env a _ Sc Uc), (last_for_first env a _ Sd Ud).
  rewrite !attr_lookup_find.
  rewrite <- (find_same a _ _ (leaf_entries_same_list env n incoming Ti)).
  rewrite <- (find_same a _ _ (leaf_entries_same_list env n clause Tc)).
  destruct (find (attr_pred a) (sub_mods n (flat_args env incoming))); [reflexivity|].
  destruct (find (attr_pred a) (sub_mods n (flat_args env clause))); [reflexivity|].
  destruct (find (attr_pred a) (flat_args env decl)); reflexivity.
Qed.

(* the list itself: one step of build_syms on an elementary symbol (tree.py:449-497) — the declaration's own
   arguments, then the converted arguments of the environment that name the symbol, in environment order *)
Lemma build_syms_leaf_list root late rec ebi me myref s ss menv acc :
  mem_id (head_id (s_type s)) BUILTIN = true -> s_name s <> iValueSym ->
  build_syms root late rec ebi me myref (s :: ss) menv [] acc =
  build_syms root late rec ebi me myref ss (filter (fun a => negb (targets (s_name s) a)) menv) []
    (ISym (s_name s) (s_prefixes s) (s_dims s) (TyElem (s_type s))
          (s_mods s ++ flat_map to_symbol_mods (filter (targets (s_name s)) menv)) :: acc).
Proof.
  intros E N. cbn [build_syms]. rewrite E.
  rewrite (proj2 (Pos.eqb_neq _ _) N). cbn [andb filter flat_map].
  rewrite (filter_ext (fun a => targets (s_name s) a || false) (targets (s_name s))) by (intros; apply orb_false_r).
  rewrite (filter_ext (fun a => negb (targets (s_name s) a || false)) (fun a => negb (targets (s_name s) a)))
    by (intros; rewrite orb_false_r; reflexivity).
  rewrite app_nil_r. reflexivity.
Qed.

Lemma filter_targets_app n (l1 l2 : list marg) :
  flat_map to_symbol_mods (filter (targets n) (l1 ++ l2)) =
  flat_map to_symbol_mods (filter (targets n) l1) ++ flat_map to_symbol_mods (filter (targets n) l2).
Proof. rewrite filter_app, flat_map_app. reflexivity. Qed.
