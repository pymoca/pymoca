(* Proofs/C07_refine_pkg.v — refinement with extends in libraries structured by packages: fe_elems relates
   flatten_extends to the specification's `elems`; top-level libraries are the special case at the end. *)
From Coq Require Import List ZArith Bool PArith Lia.
From PV Require Import Lib.ClassTree Lib.Inst Model.C07_flatten Proofs.C07_flatten Proofs.C07_refine
     Proofs.C07_refine_ext Proofs.C07_lex.
Import ListNotations.

Section Pkg.
  Variable root : list cdef.
  Notation LS := (lex_scope root).
  Notation loc := (located root).

  (* a base reachable from x through extends clauses, each resolved in the scope of the extending class *)
  Inductive reach (x : cdef * path) : cdef * path -> Prop :=
  | r_refl : reach x x
  | r_step c lex e bc blex S b :
      reach x (c, lex) -> In e (c_exts c) -> lookup (LS lex) (fst e) = Some (bc, blex, S, b) ->
      reach x (bc, blex).

  Hypothesis Hbases : forall d dlex e bc blex S b,
      loc d dlex -> eplain d -> In e (c_exts d) -> lookup (LS dlex) (fst e) = Some (bc, blex, S, b) -> eplain bc.
  Hypothesis Htypes : forall d dlex s tc tlex S b,
      loc d dlex -> eplain d -> In s (c_syms d) -> lookup (LS dlex) (s_type s) = Some (tc, tlex, S, b) -> eclass tc.
  (* no shadowing: the type of an inherited component means the same in the scope of the deriving class *)
  Hypothesis Hns : forall d dlex bc blex s,
      loc d dlex -> eplain d -> reach (d, dlex) (bc, blex) -> In s (c_syms bc) ->
      lookup (LS dlex) (s_type s) = lookup (LS blex) (s_type s).

  Definition inst_scope (c : cdef) (lex : path) : scope := mkFrame (Some (c_name c)) true [] None :: LS lex.

  Definition CP_pkg (c : cdef) (lex : path) (parent : scope) : Prop :=
    eplain c /\ loc c lex /\ parent = LS lex.

  Definition els_rel (me : scope) (syms : list sym) (els : list elem) : Prop :=
    map el_sym els = syms /\
    Forall (fun el => type_ok CP_pkg eq me (el_scope el) (s_type (el_sym el)) /\ el_mods el = []) els /\
    Forall plain_sym syms.

  Lemma els_rel_update me syms els bsyms bels :
    els_rel me syms els -> els_rel me bsyms bels ->
    els_rel me (od_update s_name Pos.eqb syms bsyms) (e_update els bels).
  Proof.
    intros (Ks & Kf & Kp) (Js & Jf & Jp). split; [|split; apply od_update_Forall; assumption].
    unfold e_update. rewrite (od_update_map el_name s_name Pos.eqb el_sym (fun a => eq_refl)), Ks, Js. reflexivity.
  Qed.

  Definition fe_rel (me : scope) (k0 : ident) (x : ext_class) (r : list elem * list eqn) : Prop :=
    exists syms, x = mkExt k0 [] syms (snd r) [] /\ els_rel me syms (fst r).

  Lemma own_empty c lex : eplain c -> f_entries (own_frame c lex) = [].
  Proof. intros H. unfold own_frame. cbn [f_entries]. inversion H. reflexivity. Qed.

  Lemma base_found c lex e bc blex bS b :
    loc c lex -> eplain c -> In e (c_exts c) ->
    lookup (own_frame c lex :: LS lex) (fst e) = Some (bc, blex, bS, b) ->
    loc bc blex /\ eplain bc /\ bS = LS blex /\ lookup (LS lex) (fst e) = Some (bc, blex, bS, b).
  Proof.
    intros Hl Hc Hine L. rewrite lookup_empty in L by exact (own_empty c lex Hc).
    destruct (lookup_located root _ _ _ _ _ _ _ Hl L) as [Hb [E _]].
    exact (conj Hb (conj (Hbases _ _ e bc _ _ _ Hl Hc Hine L) (conj E L))).
  Qed.

  Lemma all_classes_pkg : forall f c lex, loc c lex -> eplain c -> all_classes f c lex (LS lex) = [].
  Proof.
    induction f as [|f IH]; intros c lex Hl Hc; pose proof (eclass_no_classes c (or_introl Hc)) as E;
      cbn [all_classes]; rewrite E; [reflexivity|].
    rewrite fold_nil; [reflexivity|]. intros e Hine.
    destruct (mem_id (head_id (fst e)) BUILTIN); [reflexivity|].
    destruct (lookup (own_frame c lex :: LS lex) (fst e)) as [[[[bc blex] bS] b]|] eqn:L; [|reflexivity].
    destruct (base_found c lex e bc blex bS b Hl Hc Hine L) as (Hb & Hbc & -> & _).
    rewrite (IH bc blex Hb Hbc). reflexivity.
  Qed.

  Lemma own_els_rel d0 dlex0 : loc d0 dlex0 -> eplain d0 -> forall f c lex,
    loc c lex -> eplain c -> reach (d0, dlex0) (c, lex) ->
    els_rel (inst_scope d0 dlex0) (c_syms c) (map (fun s => (s, class_scope f c lex (LS lex), [])) (c_syms c)).
  Proof.
    intros Hl0 Hc0 f c lex Hl Hc Hr.
    split; [rewrite map_map; apply map_id|]. split; [|inversion Hc; assumption].
    apply Forall_map, Forall_forall. intros s Hs. split; [|reflexivity].
    cbn [el_scope el_sym fst snd]. intros tc tlex tparent b L. unfold inst_scope in L.
    rewrite lookup_empty in L by reflexivity.
    destruct (lookup_located root _ _ _ _ _ _ _ Hl0 L) as [Hlt [-> _]].
    rewrite (Hns d0 dlex0 c lex s Hl0 Hc0 Hr Hs) in L. split.
    - destruct (Htypes _ _ s tc tlex _ b Hl Hc Hs L) as [Hp|Hal]; [right; repeat split; assumption | left; exact Hal].
    - exists (LS tlex), b. split; [|reflexivity]. unfold class_scope.
      rewrite lookup_empty by exact (all_classes_pkg f c lex Hl Hc). exact L.
  Qed.

  (* Induction on the fuel = depth of the extends chain, for every class c reachable from d0; inside, the loop of
     the model and the fold of the specification over the extends clauses run in step (fold_sim, relation fe_rel):
     a step finds the same base on both sides and applies the induction hypothesis to it (one more r_step). *)
  Lemma fe_elems d0 dlex0 prefix : loc d0 dlex0 -> eplain d0 -> forall n c lex x,
    loc c lex -> eplain c -> reach (d0, dlex0) (c, lex) -> flatten_extends root n c lex [] = Ok x ->
    exists r, elems n c lex (LS lex) prefix [] = Some r /\ fe_rel (inst_scope d0 dlex0) (c_kind c) x r.
  Proof.
    intros Hl0 Hc0. induction n as [|f IH]; intros c lex x Hl Hc Hr H; [discriminate H|].
    pose proof (eplain_not_builtin c Hc) as Kk.
    inversion Hc as [n k exts ss es Hk Ht Hex Hss]. rewrite flatten_extends_S in H. cbn [elems]. subst c.
    cbn [c_exts c_kind c_classes c_syms c_eqs c_name] in *.
    match goal with |- context [fold_left ?fS exts (Some ([], []))] => set (FS := fS) end.
    set (c := CDef n k [] exts ss es) in *.
    destruct (fold_left (ext_step root f c lex) exts (Ok (mkExt k [] [] [] []))) as [x0|err] eqn:EF;
      cbn [bind] in H; [|discriminate H].
    assert (exists r0, fold_left FS exts (Some ([], [])) = Some r0 /\ fe_rel (inst_scope d0 dlex0) k x0 r0) as [[els raw] [ES R0]].
    { apply (fold_sim root f c lex (fe_rel (inst_scope d0 dlex0) k) FS exts) with (a := mkExt k [] [] [] []);
        [|exists []; split; [reflexivity | repeat split; constructor] | exact EF].
      intros e a [els raw] a' Hine (syms & -> & Ks) HM.
      destruct (ext_step_ok _ _ _ _ _ _ _ HM) as (bc & blex & rb & FB & EB & ->).
      destruct (proj1 (Forall_forall _ _) Hex e Hine) as [Hsnd Hnb].
      unfold find_base in FB. unfold FS. rewrite Hnb in FB |- *. fold (LS lex) in FB.
      destruct (lookup (own_frame c lex :: LS lex) (fst e)) as [[[[bc' blex'] bS] b]|] eqn:L; [|discriminate FB].
      inversion FB; subst bc' blex'; clear FB.
      destruct (base_found c lex e bc blex bS b Hl Hc Hine L) as (Hb & Hbc & -> & L').
      rewrite Hsnd in EB |- *.
      destruct (IH bc blex rb Hb Hbc (r_step _ _ _ e bc blex _ _ Hr Hine L') EB)
        as [[bels braw] [E1 (bsyms & -> & Js)]].
      change ([] ++ flat_args (Some prefix) []) with (@nil mentry). rewrite E1.
      eexists. split; [reflexivity|]. cbn [x_kind x_classes x_syms x_eqs x_menv fst snd].
      rewrite (eplain_not_builtin bc Hbc). eexists. split; [reflexivity | exact (els_rel_update _ _ _ _ _ Ks Js)]. }
    rewrite ES. destruct R0 as (syms & -> & Ks). cbn [fst snd] in *.
    eexists. split; [reflexivity|].
    unfold ext_finish in H. cbn [x_kind x_classes x_syms x_eqs x_menv c_name c_classes c_syms c_eqs c] in H.
    rewrite Kk in H. inversion H; subst x; clear H.
    eexists. split; [reflexivity|]. cbn [fst snd]. apply (els_rel_update _ _ _ _ _ Ks).
    exact (own_els_rel d0 dlex0 Hl0 Hc0 f c lex Hl Hc Hr).
  Qed.

  Lemma pkg_step f : class_step root CP_pkg eq f.
  Proof.
    intros c lex parent Sp prefix i [Hc [Hl ->]] <- B.
    destruct (flatten_extends root f c lex []) as [x|err] eqn:EF;
      [|cbn [build] in B; rewrite EF in B; discriminate B].
    destruct (fe_elems c lex prefix Hl Hc f c lex x Hl Hc (r_refl _) EF)
      as [[els raw] [EE (syms & -> & <- & Kf & Kp)]].
    rewrite (build_of_ext root false f c lex (LS lex) _ EF (proj1 (eplain_kind c Hc)) eq_refl) in B.
    cbn [x_kind x_classes x_syms x_eqs fst snd] in B. fold (inst_scope c lex) in B.
    destruct (build_syms root false (build root false f) (extends_builtin root f) (inst_scope c lex) (scope_ref (inst_scope c lex))
                (map el_sym els) [] [] []) as [[l rest]|err] eqn:BS; cbn [bind] in B; [|discriminate B].
    inversion B; clear B.
    exists (inst_scope c lex), els, l, rest, raw.
    split; [reflexivity|]. split; [exact BS|]. split; [exact EE|]. split; [exact Kp | exact Kf].
  Qed.
End Pkg.

(* the side conditions: every extends clause of a model names a model, every component type a model or an
   alias (never a package), models have no nested classes (eplain), and no shadowing: the type name of a
   component means the same class in the scope of every class that inherits the component.
   `lex_scope root dlex` is the scope of the lexical parent of a class d located at dlex; names written in d are
   looked up there because an eplain d has an empty own frame, which lookup passes through. *)
Definition pkg_lib (root : list cdef) : Prop :=
  (forall d dlex e bc blex S b,
      located root d dlex -> eplain d -> In e (c_exts d) ->
      lookup (lex_scope root dlex) (fst e) = Some (bc, blex, S, b) -> eplain bc) /\
  (forall d dlex s tc tlex S b,
      located root d dlex -> eplain d -> In s (c_syms d) ->
      lookup (lex_scope root dlex) (s_type s) = Some (tc, tlex, S, b) -> eclass tc) /\
  (forall d dlex bc blex s,
      located root d dlex -> eplain d -> reach root (d, dlex) (bc, blex) -> In s (c_syms bc) ->
      lookup (lex_scope root dlex) (s_type s) = lookup (lex_scope root blex) (s_type s)).

Theorem refines_extends_pkg root top r :
  pkg_lib root ->
  (forall c lex Sp b, lookup (lex_scope root []) top = Some (c, lex, Sp, b) -> eplain c) ->
  flatten root false top = Ok r ->
  Forall clean (fst r) /\ PV.Lib.Inst.inst root top = Some (map var_of (fst r), snd r).
Proof.
  intros [Hb [Ht Hn]] Htop.
  apply (flatten_refines root (CP_pkg root) eq (fun c _ _ H => eplain_kind c (proj1 H)) (pkg_step root Hb Ht Hn)).
  intros c lex parent b L. destruct (lookup_root root _ _ _ _ _ L) as [Hl [-> _]].
  split; [|reflexivity]. split; [exact (Htop _ _ _ _ L) | split; [exact Hl | reflexivity]].
Qed.

Lemma reach_toplevel root d bc blex : Forall eclass root -> reach root (d, []) (bc, blex) -> blex = [].
Proof.
  intros Hroot R. remember (d, @nil ident) as x eqn:Ex. remember (bc, blex) as y eqn:Ey.
  revert bc blex Ey. induction R as [|c lex e bc0 blex0 S b R IH Hin L]; intros bc blex Ey.
  - subst. inversion Ey; reflexivity.
  - inversion Ey; subst. specialize (IH c lex eq_refl). subst lex.
    destruct (lookup_rsc root _ _ _ _ _ Hroot L) as [_ [E _]]. exact E.
Qed.

Theorem root_lib_is_pkg_lib root : root_lib root -> pkg_lib root.
Proof.
  intros [Hroot Hbases]. split; [|split].
  - intros d dlex e bc blex S b Hl Hd He L. destruct (located_toplevel root d dlex Hroot Hl) as [-> Hin].
    exact (Hbases d e bc blex S b Hin Hd He L).
  - intros d dlex s tc tlex S b Hl Hd Hs L. destruct (located_toplevel root d dlex Hroot Hl) as [-> Hin].
    destruct (lookup_rsc root _ _ _ _ _ Hroot L) as [H _]. exact H.
  - intros d dlex bc blex s Hl Hd R Hs. destruct (located_toplevel root d dlex Hroot Hl) as [-> Hin].
    rewrite (reach_toplevel root d bc blex Hroot R). reflexivity.
Qed.

Theorem refines_extends root top r :
  root_lib root ->
  ~ (exists c lex Sp b, lookup (lex_scope root []) top = Some (c, lex, Sp, b) /\ alias c) ->
  flatten root false top = Ok r ->
  Forall clean (fst r) /\ PV.Lib.Inst.inst root top = Some (map var_of (fst r), snd r).
Proof.
  intros Hroot Htop. apply (refines_extends_pkg root top r (root_lib_is_pkg_lib root Hroot)).
  intros c lex Sp b L. destruct (lookup_rsc root _ _ _ _ _ (proj1 Hroot) L) as [[Hc|Hal] _]; [exact Hc|].
  exfalso. apply Htop. eexists _, _, _, _. split; [exact L | exact Hal].
Qed.
