(* C11 — array equations (Model/C11_arrays.v).  A Modelica vector can come out of CasADi as a column or as a
   row (A[k,:] is a row): hence the two cases of `rep` for it and the implicit transpose of exitEquation. *)
From Coq Require Import ZArith QArith Qcanon List Bool Arith Lia.
From PV Require Import Model.C11_residual Proofs.C11_residual Model.C11_arrays.
Import ListNotations.
Open Scope Qc_scope.

Lemma in_range_spec d k : in_range d k = true -> (1 <= k <= Z.of_nat d)%Z.
Proof. unfold in_range. intro H. apply andb_prop in H. destruct H as [A B]. apply Z.leb_le in A, B. lia. Qed.

Lemma mrange_nth lo st hi i : (i < length (modelica_range lo st hi))%nat ->
  nth i (modelica_range lo st hi) 0%Z = (lo + Z.of_nat i * st)%Z.
Proof.
  unfold modelica_range. destruct (_ || _); [intro H; inversion H |].
  rewrite map_length, seq_length. apply nth_map_seq.
Qed.
(* the generator's index list holds the 0-based counterparts of the Modelica indices (which are >= 1,
   so the conversion to a CasADi position loses nothing) *)
Lemma sub_rel d s sc im ic :
  m_sub d s = Some (sc, im) -> c_sub d s = Some ic ->
  length ic = length im /\
  forall i, (i < length im)%nat -> Z.of_nat (Z.to_nat (nth i ic 0%Z)) = (nth i im 0 - 1)%Z.
Proof.
  intros Hm Hc.
  enough (length ic = length im /\
          forall i, (i < length im)%nat -> (nth i ic 0 = nth i im 0 - 1 /\ 1 <= nth i im 0)%Z) as [HL HN].
  { split; [exact HL |]. intros i Hi. destruct (HN i Hi) as [E H1]. rewrite Z2Nat.id; lia. }
  revert Hm Hc. destruct s as [k | lo hi | | lo st hi]; cbn [m_sub c_sub]; intros Hm Hc.
  - destruct (in_range d k) eqn:R; [| discriminate Hm]. injection Hm as <- <-. injection Hc as <-.
    apply in_range_spec in R. split; [reflexivity |]. intros i Hi. simpl in Hi.
    destruct i; [simpl; lia | lia].
  - destruct (in_range d lo && in_range d hi && (lo <=? hi)%Z) eqn:R; [| discriminate Hm].
    injection Hm as <- <-. injection Hc as <-.
    apply andb_prop in R. destruct R as [R R3]. apply andb_prop in R. destruct R as [R1 R2].
    apply in_range_spec in R1, R2. apply Z.leb_le in R3.
    rewrite !zrange_length. split; [f_equal; lia |].
    intros i Hi. rewrite !zrange_nth by lia. lia.
  - injection Hm as <- <-. injection Hc as <-. rewrite !zrange_length. split; [reflexivity |].
    intros i Hi. rewrite !zrange_nth by lia. lia.
  - destruct (st =? 0)%Z eqn:Est; [discriminate Hm |]. apply Z.eqb_neq in Est.
    rewrite (range_values_modelica lo st hi Est) in Hc.
    (* the picked indices: lo, lo+st, ..., lo + (n-1)*st with n >= 1 *)
    pose proof (mrange_nth lo st hi) as Hnth.
    remember (modelica_range lo st hi) as idx eqn:Eidx.
    destruct idx as [| p0 rest]; cbv beta match in Hm, Hc; [discriminate Hm |].
    destruct (forallb (in_range d) (p0 :: rest)) eqn:Efa; [| discriminate Hm]. injection Hm as <- <-.
    destruct (in_range d _ && in_range d _); [| discriminate Hc].
    remember (length (p0 :: rest)) as n eqn:En. assert (1 <= n)%nat as Hn by (rewrite En; simpl; lia).
    rewrite (Hnth (n - 1)%nat) in Hc by lia. injection Hc as <-.
    assert (p0 = lo) as -> by (specialize (Hnth 0%nat ltac:(lia)); simpl in Hnth; lia).
    (* the Python slice slice(lo - 1, end, st) selects the 0-based counterparts of the n picked
       indices lo, lo+st, ..., in the same order *)
    rewrite arange_incl by exact Est.
    replace (lo + Z.of_nat (n - 1) * st - 1 - (lo - 1))%Z with (Z.of_nat (n - 1) * st)%Z by ring.
    rewrite Z.div_mul by exact Est. replace (Z.to_nat (Z.of_nat (n - 1) + 1)) with n by lia.
    rewrite map_length, seq_length. split; [reflexivity |].
    intros i Hi. rewrite nth_map_seq by exact Hi.
    assert (In (nth i (lo :: rest) 0%Z) (lo :: rest)) as Hin by (apply nth_In; rewrite <- En; exact Hi).
    apply (proj1 (forallb_forall _ _) Efa), in_range_spec in Hin. rewrite Hnth in Hin |- * by exact Hi. lia.
Qed.

Lemma m_sub_scalar d s im : m_sub d s = Some (true, im) -> length im = 1%nat.
Proof.
  destruct s as [k | lo hi | | lo st hi]; cbn [m_sub]; intro H.
  - destruct (in_range d k); [injection H as <-; reflexivity | discriminate H].
  - destruct (_ && _); discriminate H.
  - discriminate H.
  - destruct (st =? 0)%Z; [discriminate H |]. destruct (modelica_range lo st hi); [discriminate H |].
    destruct (forallb _ _); discriminate H.
Qed.

Lemma sumn_ext k f g : (forall l, (l < k)%nat -> f l = g l) -> sumn k f = sumn k g.
Proof.
  induction k as [| k IH]; intro H; simpl; [reflexivity |].
  rewrite IH by (intros l Hl; apply H; lia). rewrite H by lia. reflexivity.
Qed.

Definition fills (n m : nat) (g : nat -> nat -> Qc) (v : cmat) : Prop :=
  cm_r v = n /\ cm_c v = m /\ forall i j, (i < n)%nat -> (j < m)%nat -> cm_get v i j = g i j.
(* a Modelica matrix is the CasADi matrix of the same shape; a Modelica vector is a CasADi column
   (n,1) or row (1,n) *)
Definition rep (sh : mshape) (g : nat -> nat -> Qc) (v : cmat) : Prop :=
  match sh with
  | ShM n m => fills n m g v
  | ShV n => fills n 1 (fun i _ => g i 0%nat) v \/ fills 1 n (fun _ j => g j 0%nat) v
  end.

Lemma fills_ext n m g g' v : fills n m g v ->
  (forall i j, (i < n)%nat -> (j < m)%nat -> g i j = g' i j) -> fills n m g' v.
Proof.
  intros (R & C & E) H. repeat split; [exact R | exact C |].
  intros i j Hi Hj. rewrite <- H by assumption. apply E; assumption.
Qed.
Lemma fills_zip f n m ga gb va vb : fills n m ga va -> fills n m gb vb ->
  fills n m (fun i j => f (ga i j) (gb i j))
    {| cm_r := cm_r va; cm_c := cm_c va; cm_get := fun i j => f (cm_get va i j) (cm_get vb i j) |}.
Proof.
  intros (R & C & Ea) (_ & _ & Eb). repeat split; cbn [cm_r cm_c cm_get]; auto.
  intros i j Hi Hj. rewrite Ea, Eb by assumption. reflexivity.
Qed.
Lemma fills_tr n m g v : fills n m g v ->
  fills m n (fun i j => g j i) {| cm_r := cm_c v; cm_c := cm_r v; cm_get := fun i j => cm_get v j i |}.
Proof. intros (R & C & E). repeat split; cbn [cm_r cm_c cm_get]; auto. Qed.
Lemma fills_mul n k m ga gb va vb : fills n k ga va -> fills k m gb vb ->
  fills n m (fun i j => sumn k (fun l => ga i l * gb l j))
    {| cm_r := cm_r va; cm_c := cm_c vb; cm_get := fun i j => sumn (cm_c va) (fun l => cm_get va i l * cm_get vb l j) |}.
Proof.
  intros (Ra & Ca & Ea) (_ & Cb & Eb). repeat split; cbn [cm_r cm_c cm_get]; auto.
  intros i j Hi Hj. rewrite Ca. apply sumn_ext. intros l Hl. rewrite Ea, Eb by assumption. reflexivity.
Qed.

Lemma flat_map_single {A} (f : nat -> A) l : flat_map (fun j => [f j]) l = map f l.
Proof. induction l; simpl; [reflexivity | f_equal; assumption]. Qed.
Lemma fills_flat n m g v : fills n m g v ->
  c_flat v = flat_map (fun j => map (fun i => g i j) (seq 0 n)) (seq 0 m).
Proof.
  unfold c_flat. intros (-> & -> & E). rewrite !flat_map_concat_map. f_equal.
  apply map_ext_in. intros j Hj. apply map_ext_in. intros i Hi. apply in_seq in Hi, Hj. apply E; lia.
Qed.

(* either dimension tells how a vector lies *)
Lemma rep_col n g v : rep (ShV n) g v -> cm_r v = n -> fills n 1 (fun i _ => g i 0%nat) v.
Proof.
  intros [H | H] Hr; [exact H |]. assert (n = 1)%nat as -> by (rewrite <- Hr; exact (proj1 H)).
  apply (fills_ext _ _ _ _ _ H). intros i j Hi Hj. assert (i = j) as -> by lia. reflexivity.
Qed.
Lemma rep_transpose_vec n g v : rep (ShV n) g v ->
  rep (ShV n) g {| cm_r := cm_c v; cm_c := cm_r v; cm_get := fun i j => cm_get v j i |}.
Proof. intros [H | H]; [right | left]; exact (fills_tr _ _ _ _ H). Qed.
(* the transpose is a column; transposed back it has the projections of v *)
Lemma rep_row n g v : rep (ShV n) g v -> cm_c v = n -> fills 1 n (fun _ j => g j 0%nat) v.
Proof. intros H Hc. exact (fills_tr _ _ _ _ (rep_col n g _ (rep_transpose_vec n g v H) Hc)). Qed.

(* elementwise operations pass CasADi's check of equal shapes, so two vectors lie the same way *)
Lemma rep_zip f sh ga gb va vb : rep sh ga va -> rep sh gb vb ->
  Nat.eqb (cm_r va) (cm_r vb) && Nat.eqb (cm_c va) (cm_c vb) = true ->
  rep sh (fun i j => f (ga i j) (gb i j))
    {| cm_r := cm_r va; cm_c := cm_c va; cm_get := fun i j => f (cm_get va i j) (cm_get vb i j) |}.
Proof.
  intros Ha Hb Ed. apply andb_prop in Ed. destruct Ed as [Er Ec]. apply Nat.eqb_eq in Er, Ec.
  destruct sh as [n | n m]; [| exact (fills_zip f _ _ _ _ _ _ Ha Hb)].
  destruct Ha as [Ha | Ha]; [left | right]; refine (fills_zip f _ _ _ _ _ _ Ha _).
  - apply (rep_col n gb vb Hb). rewrite <- Er. exact (proj1 Ha).
  - apply (rep_row n gb vb Hb). rewrite <- Ec. exact (proj1 (proj2 Ha)).
Qed.
Lemma rep_map f sh g v : rep sh g v ->
  rep sh (fun i j => f (g i j)) {| cm_r := cm_r v; cm_c := cm_c v; cm_get := fun i j => f (cm_get v i j) |}.
Proof. intro H. apply (rep_zip (fun q _ => f q) sh g g v v H H). rewrite !Nat.eqb_refl. reflexivity. Qed.
Lemma rep_flat sh g v : rep sh g v -> c_flat v = m_flat sh g.
Proof.
  destruct sh as [n | n m]; [| apply fills_flat].
  intros [H | H]; rewrite (fills_flat _ _ _ _ H); cbn [m_flat seq flat_map].
  - apply app_nil_r.
  - apply flat_map_single.
Qed.

Definition mat_rel (mm : menv2) (cm : cenv2) : Prop :=
  forall x i j, cm x (i - 1)%Z (j - 1)%Z = mm x i j.

Lemma mshape_eqb_eq a b : mshape_eqb a b = true -> a = b.
Proof.
  destruct a, b; simpl; intro H; try discriminate H.
  - apply Nat.eqb_eq in H. congruence.
  - apply andb_prop in H. destruct H as [A B]. apply Nat.eqb_eq in A, B. congruence.
Qed.

Section ArrSound.
Variable F : positive -> Qc -> Qc.
Variable decl : positive -> mshape.
Variable T : table.
Hypothesis HT : table_ok T = true.
Variables (mm : menv2) (cm : cenv2) (rm : menv) (rc : cenv).
Hypothesis HE : env_rel rm rc.
Hypothesis HM : mat_rel mm cm.

Lemma rep_sound a : forall c sh g v,
  tr_a decl T a = Ok c -> m_aeval F decl a mm rm = Some (sh, g) -> ca_aeval F c cm rc = Some v ->
  rep sh g v.
Proof.
  induction a as [x | x s | x s1 s2 | o a IHa b IHb | a IHa b IHb | e a IHa | a IHa | a IHa];
    intros c sh g v Htr Hm Hc; cbn [tr_a m_aeval] in Htr, Hm.
  - destruct (decl x) as [n | n m]; injection Htr as <-; injection Hm as <- <-;
      cbn [ca_aeval] in Hc; injection Hc as <-.
    + left. repeat split. intros i j _ _. cbn [cm_get].
      rewrite <- (proj1 (proj2 (proj2 HE))). f_equal. lia.
    + repeat split. intros i j _ _. cbn [cm_get]. rewrite <- HM. f_equal; lia.
  - destruct (decl x) as [d | ? ?]; [| discriminate Htr].
    destruct (c_sub d s) as [ic |] eqn:Ec; [| discriminate Htr]. injection Htr as <-.
    destruct (m_sub d s) as [[[|] im] |] eqn:Em; try discriminate Hm. injection Hm as <- <-.
    cbn [ca_aeval cm_c Nat.eqb] in Hc. injection Hc as <-.
    destruct (sub_rel d s _ im ic Em Ec) as [HL HN].
    left. repeat split; cbn [cm_r cm_c cm_get]; [exact HL |].
    intros i j Hi _. rewrite (HN i Hi). apply HE.
  - destruct (decl x) as [? | d1 d2]; [discriminate Htr |].
    destruct (c_sub d1 s1) as [ic1 |] eqn:Ec1; [| discriminate Htr].
    destruct (c_sub d2 s2) as [ic2 |] eqn:Ec2; [| discriminate Htr]. injection Htr as <-.
    cbn [ca_aeval] in Hc. injection Hc as Hv.
    destruct (m_sub d1 s1) as [[sc1 im1] |] eqn:Em1; [| discriminate Hm].
    destruct (m_sub d2 s2) as [[sc2 im2] |] eqn:Em2; [| destruct sc1; discriminate Hm].
    destruct (sub_rel d1 s1 _ im1 ic1 Em1 Ec1) as [HL1 HN1].
    destruct (sub_rel d2 s2 _ im2 ic2 Em2 Ec2) as [HL2 HN2].
    (* the value is the selected sub-matrix; a scalar subscript makes it one row or one column *)
    assert (fills (length im1) (length im2) (fun i j => mm x (nth i im1 0%Z) (nth j im2 0%Z)) v) as Hf.
    { rewrite <- Hv. repeat split; cbn [cm_r cm_c cm_get]; [exact HL1 | exact HL2 |].
      intros i j Hi Hj. rewrite (HN1 i Hi), (HN2 j Hj). apply HM. }
    destruct sc1, sc2; try discriminate Hm; injection Hm as <- <-.
    + apply m_sub_scalar in Em1. rewrite Em1 in Hf. right. apply (fills_ext _ _ _ _ _ Hf).
      intros i j Hi _. apply Nat.lt_1_r in Hi. rewrite Hi. reflexivity.
    + apply m_sub_scalar in Em2. rewrite Em2 in Hf. left. apply (fills_ext _ _ _ _ _ Hf).
      intros i j _ Hj. apply Nat.lt_1_r in Hj. rewrite Hj. reflexivity.
    + exact Hf.
  - apply ok_inv in Htr as (ca & Ea & Htr).
    apply ok_inv in Htr as (cb & Eb & Htr). injection Htr as <-.
    apply some_inv in Hm as ([sa ga] & Ma & Hm).
    apply some_inv in Hm as ([sb gb] & Mb & Hm).
    destruct (mshape_eqb sa sb) eqn:Es; [| discriminate Hm]. apply mshape_eqb_eq in Es. subst sb.
    injection Hm as <- <-.
    cbn [ca_aeval] in Hc.
    apply some_inv in Hc as (va & Ca & Hc).
    apply some_inv in Hc as (vb & Cb & Hc).
    destruct (Nat.eqb (cm_r va) (cm_r vb) && Nat.eqb (cm_c va) (cm_c vb)) eqn:Ed; [| discriminate Hc].
    injection Hc as <-.
    exact (rep_zip (aop_q o) sa ga gb va vb (IHa ca sa ga va Ea Ma Ca) (IHb cb sa gb vb Eb Mb Cb) Ed).
  - apply ok_inv in Htr as (ca & Ea & Htr).
    apply ok_inv in Htr as (cb & Eb & Htr). injection Htr as <-.
    apply some_inv in Hm as ([sa ga] & Ma & Hm).
    destruct sa as [? | n k]; [discriminate Hm |].
    apply some_inv in Hm as ([sb gb] & Mb & Hm).
    cbn [ca_aeval] in Hc.
    apply some_inv in Hc as (va & Ca & Hc).
    apply some_inv in Hc as (vb & Cb & Hc).
    destruct (Nat.eqb (cm_c va) (cm_r vb)) eqn:Ed; [| discriminate Hc].
    injection Hc as <-. apply Nat.eqb_eq in Ed.
    pose proof (IHa ca _ ga va Ea Ma Ca) as Ra. cbn [rep] in Ra.
    pose proof (IHb cb sb gb vb Eb Mb Cb) as Rb.
    destruct sb as [k' | k' m]; (destruct (Nat.eqb k k') eqn:Ek; [| discriminate Hm]);
      apply Nat.eqb_eq in Ek; subst k'; injection Hm as <- <-.
    + (* matrix * vector: the vector is taken as a column *)
      left. apply (fills_mul n k 1 ga (fun i _ => gb i 0%nat) va vb Ra).
      apply (rep_col k gb vb Rb). rewrite <- Ed. exact (proj1 (proj2 Ra)).
    + exact (fills_mul n k m ga gb va vb Ra Rb).
  - apply ok_inv in Htr as (ce & Ee & Htr).
    apply ok_inv in Htr as (ca & Ea & Htr). injection Htr as <-.
    destruct (m_eval F e rm) as [[s | ?] |] eqn:Me; try discriminate Hm.
    apply some_inv in Hm as ([sa ga] & Ma & Hm). injection Hm as <- <-.
    cbn [ca_aeval] in Hc.
    destruct (expr_sound F T HT rm rc HE e ce Ee _ Me) as (w & Ew & ->).
    rewrite Ew in Hc. cbv iota beta in Hc.
    apply some_inv in Hc as (va & Ca & Hc). injection Hc as <-.
    exact (rep_map (Qcmult s) sa ga va (IHa ca sa ga va Ea Ma Ca)).
  - apply ok_inv in Htr as (ca & Ea & Htr). injection Htr as <-.
    apply some_inv in Hm as ([sa ga] & Ma & Hm). injection Hm as <- <-.
    cbn [ca_aeval] in Hc.
    apply some_inv in Hc as (va & Ca & Hc). injection Hc as <-.
    exact (rep_map Qcopp sa ga va (IHa ca sa ga va Ea Ma Ca)).
  - apply ok_inv in Htr as (ca & Ea & Htr). injection Htr as <-.
    apply some_inv in Hm as ([[? | n m] ga] & Ma & Hm); [discriminate Hm |]. injection Hm as <- <-.
    cbn [ca_aeval] in Hc.
    apply some_inv in Hc as (va & Ca & Hc). injection Hc as <-.
    exact (fills_tr n m ga va (IHa ca _ ga va Ea Ma Ca)).
Qed.

Lemma shape_eval c : forall v, ca_aeval F c cm rc = Some v -> ca_shape c = Some (cm_r v, cm_c v).
Proof.
  induction c as [x n | x n m | a IH idx | a IH i1 i2 | o a IHa b IHb | a IHa b IHb | ce a IH | a IH | a IH];
    intros v Hc; cbn [ca_aeval] in Hc; cbn [ca_shape].
  - injection Hc as <-. reflexivity.
  - injection Hc as <-. reflexivity.
  - apply some_inv in Hc as (va & Ca & Hc). rewrite (IH va Ca).
    destruct (Nat.eqb (cm_c va) 1) eqn:E1; [| discriminate Hc]. apply Nat.eqb_eq in E1.
    injection Hc as <-. rewrite E1. reflexivity.
  - apply some_inv in Hc as (va & Ca & Hc). injection Hc as <-. rewrite (IH va Ca). reflexivity.
  - apply some_inv in Hc as (va & Ca & Hc). apply some_inv in Hc as (vb & Cb & Hc).
    rewrite (IHa va Ca), (IHb vb Cb).
    destruct (Nat.eqb (cm_r va) (cm_r vb) && Nat.eqb (cm_c va) (cm_c vb)); [| discriminate Hc].
    injection Hc as <-. reflexivity.
  - apply some_inv in Hc as (va & Ca & Hc). apply some_inv in Hc as (vb & Cb & Hc).
    rewrite (IHa va Ca), (IHb vb Cb).
    destruct (Nat.eqb (cm_c va) (cm_r vb)); [| discriminate Hc]. injection Hc as <-. reflexivity.
  - apply some_inv in Hc as (s & _ & Hc). apply some_inv in Hc as (va & Ca & Hc).
    injection Hc as <-. exact (IH va Ca).
  - apply some_inv in Hc as (va & Ca & Hc). injection Hc as <-. exact (IH va Ca).
  - apply some_inv in Hc as (va & Ca & Hc). injection Hc as <-. rewrite (IH va Ca). reflexivity.
Qed.

Lemma aeq_sound l r c L v :
  tr_aeq decl T l r = Ok c -> m_ares F decl l r mm rm = Some L -> ca_aeval F c cm rc = Some v ->
  c_flat v = L.
Proof.
  unfold tr_aeq, m_ares. intros Htr Hm Hc.
  apply ok_inv in Htr as (cl & El & Htr).
  apply ok_inv in Htr as (cr & Er & Htr).
  destruct (ca_shape cl) as [[rl cl_] |] eqn:Sl; [| discriminate Htr].
  destruct (ca_shape cr) as [[rr cr_] |] eqn:Sr; [| discriminate Htr].
  apply some_inv in Hm as ([sl gl] & Ml & Hm).
  apply some_inv in Hm as ([sr gr] & Mr & Hm).
  destruct (mshape_eqb sl sr) eqn:Es; [| discriminate Hm]. apply mshape_eqb_eq in Es. subst sr.
  injection Hm as <-.
  set (tp := negb (Nat.eqb rl rr && Nat.eqb cl_ cr_) && (Nat.eqb rl cr_ && Nat.eqb cl_ rr)) in Htr.
  destruct (ca_shape (CABin ASub cl (if tp then CATr cr else cr))); [| discriminate Htr].
  injection Htr as <-. cbn [ca_aeval] in Hc.
  apply some_inv in Hc as (va & Cl & Hc).
  apply some_inv in Hc as (vb & Cr & Hc).
  destruct (Nat.eqb (cm_r va) (cm_r vb) && Nat.eqb (cm_c va) (cm_c vb)) eqn:Ed; [| discriminate Hc].
  injection Hc as <-.
  pose proof (rep_sound l cl sl gl va El Ml Cl) as Ra.
  assert (rep sl gr vb) as Rb.
  { destruct tp eqn:Etp; [| exact (rep_sound r cr sl gr vb Er Mr Cr)].
    cbn [ca_aeval] in Cr. apply some_inv in Cr as (vr & Cr0 & Cr).
    injection Cr as <-. pose proof (rep_sound r cr sl gr vr Er Mr Cr0) as Rr.
    destruct sl as [n | n m]; [exact (rep_transpose_vec n gr vr Rr) |].
    (* a matrix is never transposed: both sides have the same CasADi shape *)
    exfalso. pose proof (shape_eval cl va Cl) as S1. pose proof (shape_eval cr vr Cr0) as S2.
    rewrite Sl in S1. rewrite Sr in S2. injection S1 as -> ->. injection S2 as -> ->.
    destruct Ra as (A1 & A2 & _). destruct Rr as (B1 & B2 & _).
    unfold tp in Etp. rewrite A1, A2, B1, B2, !Nat.eqb_refl in Etp. discriminate Etp. }
  apply rep_flat. exact (rep_zip (aop_q ASub) sl gl gr va vb Ra Rb Ed).
Qed.

End ArrSound.

(* the shapes-differ guard of exitEquation matters: without it the right-hand side of a square
   array equation is transposed (the seeded change /verif/seeded/C11/m3) *)
Definition sq_decl : positive -> mshape := fun _ => ShM 2 2.
Definition sq_cm : cenv2 := fun x i j => z2q (Zpos x * 100 + i * 10 + j).
