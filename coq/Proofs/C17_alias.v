(* C17 — the class map of AliasRelation.add (add_al): its invariants, the classes after one legal
   add, and that these are the classes of two plain merges. *)
From stdpp Require Import gmap.
From PV Require Import Lib.Closure Model.C17_alias.

Lemma tog_tog v : tog (tog v) = v.
Proof. destruct v as [[] p]; reflexivity. Qed.
Lemma tog_ne v : tog v ≠ v.
Proof. destruct v as [[] p]; intros [=]. Qed.
Global Instance tog_inj : Inj (=) (=) tog.
Proof. intros x y Hxy. rewrite <- (tog_tog x), Hxy. apply tog_tog. Qed.

Lemma elem_togs v A : v ∈ togs A ↔ tog v ∈ A.
Proof.
  unfold togs. rewrite elem_of_map. split.
  - intros (w & -> & Hw). by rewrite tog_tog.
  - intros Hv. exists (tog v). by rewrite tog_tog.
Qed.

Definition sym (m : amap) : Prop := ∀ k, cls m (tog k) = togs (cls m k).
Definition consistent (m : amap) : Prop := ∀ k, tog k ∉ cls m k.

Lemma togs_union A B : togs (A ∪ B) = togs A ∪ togs B.
Proof. apply set_map_union_L. Qed.

Lemma togs_singleton k : togs {[k]} = {[tog k]}.
Proof. apply set_map_singleton_L. Qed.

Definition ext_eq (m1 m2 : amap) : Prop := ∀ k, cls m1 k = cls m2 k.

Lemma inv_ext m1 m2 : ext_eq m1 m2 → inv m2 → inv m1.
Proof.
  intros E [Hr Hc]. split.
  - intros k. rewrite (E k). apply Hr.
  - intros k v. rewrite (E k), (E v). apply Hc.
Qed.

(* No member of Y has its negation in Y, so no key is written twice with different values and
   the order in which the loop of add traverses the set does not matter. *)
Lemma repoint_lookup {V} (x y : V) (m : gmap svar V) (Y : gset svar) (k : svar) :
  (∀ v, v ∈ Y → tog v ∉ Y) →
  set_fold (fun v (acc : gmap svar V) => <[v := x]> (<[tog v := y]> acc)) m Y !! k =
    if decide (k ∈ Y) then Some x else if decide (tog k ∈ Y) then Some y else m !! k.
Proof.
  pose (P := fun (r : gmap svar V) (X : gset svar) => (∀ v, v ∈ X → tog v ∉ X) →
    r !! k = if decide (k ∈ X) then Some x else if decide (tog k ∈ X) then Some y else m !! k).
  apply (set_fold_ind_L P); unfold P.
  - intros _. by rewrite !decide_False by apply not_elem_of_empty.
  - intros z X r _ IH Hd.
    assert (Hz : z ∈ {[z]} ∪ X) by apply elem_of_union_l, elem_of_singleton_2, eq_refl.
    destruct (decide (k = z)) as [->|Hkz].
    { by rewrite lookup_insert, decide_True. }
    rewrite lookup_insert_ne by done.
    destruct (decide (k = tog z)) as [->|Hktz].
    { by rewrite lookup_insert, decide_False, tog_tog, decide_True by auto. }
    rewrite lookup_insert_ne by done.
    assert (Hj : ∀ j, j ≠ z → j ∈ {[z]} ∪ X ↔ j ∈ X).
    { intros j Hne. rewrite elem_of_union, elem_of_singleton. tauto. }
    assert (Htk : tog k ≠ z) by (intros <-; by rewrite tog_tog in Hktz).
    rewrite (decide_ext _ _ _ _ (Hj k Hkz)), (decide_ext _ _ _ _ (Hj (tog k) Htk)).
    apply IH. intros v Hv Htv. by apply (Hd v); apply elem_of_union_r.
Qed.

Lemma repoint_lookup' {V} (x y : V) (m : gmap svar V) (Y : gset svar) (k : svar) :
  (∀ v, v ∈ Y → tog v ∉ Y) →
  set_fold (fun v (acc : gmap svar V) => <[tog v := y]> (<[v := x]> acc)) m Y !! k =
    if decide (k ∈ Y) then Some x else if decide (tog k ∈ Y) then Some y else m !! k.
Proof.
  intros Hd. rewrite <- (repoint_lookup x y m Y k Hd). f_equal.
  apply foldr_ext; [|done..]. intros v acc. apply insert_commute, tog_ne.
Qed.

(* inv: the classes partition; sym: the class of a negation is the mirrored class; consistent: no
   variable is aliased to its own negation *)
Section Signed.
  Context (m : amap) (Hi : inv m) (Hs : sym m) (Hc : consistent m).

  Lemma sym_mem k v : v ∈ cls m (tog k) ↔ tog v ∈ cls m k.
  Proof. by rewrite Hs, elem_togs. Qed.

  Lemma mem_tog k v : v ∈ cls m k → tog v ∈ cls m (tog k).
  Proof. intros Hv. apply (proj2 (sym_mem k (tog v))). by rewrite tog_tog. Qed.

  Lemma mirror x y v : v ∈ cls m x → tog v ∈ cls m y → tog y ∈ cls m x.
  Proof. intros Hx Hy. apply (inv_closed m (tog y) v x Hi); [apply (proj2 (sym_mem y v)), Hy|done]. Qed.

  Lemma mirror_union a b v : v ∈ cls m (tog a) ∪ cls m (tog b) ↔ tog v ∈ cls m a ∪ cls m b.
  Proof. by rewrite !elem_of_union, (sym_mem a v), (sym_mem b v). Qed.

  Context (a b : svar) (Hleg : tog b ∉ cls m a).

  Lemma merged_disjoint v : v ∈ cls m a ∪ cls m b → tog v ∉ cls m a ∪ cls m b.
  Proof.
    intros [Hv|Hv]%elem_of_union [Htv|Htv]%elem_of_union.
    - apply (Hc a). by apply (mirror a a v).
    - apply Hleg. by apply (mirror a b v).
    - apply Hleg, (mirror a b a); [apply Hi|]. by apply (mirror b a v).
    - apply (Hc b). by apply (mirror b b v).
  Qed.

  Lemma cls_add_al k :
    cls (add_al m a b) k =
      if decide (k ∈ cls m a ∪ cls m b) then cls m a ∪ cls m b
      else if decide (tog k ∈ cls m a ∪ cls m b) then cls m (tog a) ∪ cls m (tog b)
      else cls m k.
  Proof.
    unfold add_al. case_decide as Hb.
    - (* already aliases: nothing changes, and the right-hand side collapses *)
      assert (Eb : cls m b = cls m a) by apply Hi, Hb.
      assert (Etb : cls m (tog b) = cls m (tog a)) by (by rewrite (Hs b), (Hs a), Eb).
      rewrite Eb, Etb, !union_idemp_L.
      case_decide as Hk; [by apply Hi|].
      case_decide as Htk; [|done]. apply (proj2 Hi), (proj2 (sym_mem a k)), Htk.
    - unfold cls at 1. rewrite repoint_lookup by apply merged_disjoint.
      case_decide; [done|]. by case_decide.
  Qed.

  Lemma add_al_double_merge k :
    cls (add_al m a b) k = cls (merge (merge m a b) (tog a) (tog b)) k.
  Proof.
    (* the first merge leaves the classes of the negations of a and b alone *)
    assert (H1 : ∀ x, x ∈ cls m a ∪ cls m b → cls (merge m a b) (tog x) = cls m (tog x)).
    { intros x Hx. rewrite cls_merge. apply decide_False. by apply merged_disjoint. }
    rewrite (cls_merge (merge m a b)).
    rewrite (H1 a), (H1 b) by (apply elem_of_union_l, Hi || apply elem_of_union_r, Hi).
    rewrite cls_add_al, cls_merge, (decide_ext _ _ _ _ (mirror_union a b k)) by done.
    case_decide as Hk; [|done]. by rewrite decide_False by by apply merged_disjoint.
  Qed.

  Lemma add_al_signed : inv (add_al m a b) ∧ sym (add_al m a b) ∧ consistent (add_al m a b).
  Proof.
    split; [|split].
    - eapply inv_ext; [intros k; apply add_al_double_merge|]. by apply merge_inv, merge_inv.
    - intros k. rewrite (cls_add_al (tog k)), (cls_add_al k), tog_tog.
      destruct (decide (k ∈ cls m a ∪ cls m b)) as [H1|H1].
      + rewrite decide_False by by apply merged_disjoint. by rewrite togs_union, <- !Hs.
      + case_decide; [|apply Hs]. by rewrite togs_union, <- !Hs, !tog_tog.
    - intros k. rewrite cls_add_al.
      case_decide as H1; [by apply merged_disjoint|].
      case_decide as H2; [|apply Hc]. by rewrite mirror_union, tog_tog.
  Qed.
End Signed.

Definition dbl (P : list (svar * svar)) : list (svar * svar) :=
  flat_map (fun '(a, b) => [(a, b); (tog a, tog b)]) P.

Lemma sym_empty : sym (∅ : amap).
Proof. intros k. by rewrite !cls_empty, togs_singleton. Qed.
Lemma consistent_empty : consistent (∅ : amap).
Proof. intros k. rewrite cls_empty. intros ?%elem_of_singleton. by eapply tog_ne. Qed.

Lemma merge_ext (m1 m2 : amap) a b : ext_eq m1 m2 → ext_eq (merge m1 a b) (merge m2 a b).
Proof. intros E k. by rewrite !cls_merge, (E a), (E b), (E k). Qed.
