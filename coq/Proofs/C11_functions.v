(* C11 — user functions.  get_function's sequential substitution gives every program variable the
   value that the sequential execution of the algorithm section gives it: the invariant Inv relates
   the Modelica environment during execution to the symbolic `values` dict evaluated at the input
   point, and every statement form (assignment, unrolled for, repaired if) preserves it. *)
From Coq Require Import ZArith QArith Qcanon List Bool Lia.
From PV Require Import Model.C11_residual Proofs.C11_residual Model.C11_functions.
Import ListNotations.
Open Scope Qc_scope.

(* program variables are the positives below 1000; the temporaries of the repaired
   exitIfStatement (tmp_of x = x + 1000) lie above *)
Definition small (y : positive) : Prop := (y < 1000)%positive.
Lemma tmp_not_small x : ~ small (tmp_of x).
Proof. unfold small, tmp_of. lia. Qed.
Lemma tmp_inj x y : tmp_of x = tmp_of y -> x = y.
Proof. unfold tmp_of. intro H. lia. Qed.

Fixpoint wfe (e : expr) : Prop :=
  match e with
  | ENum _ | EBool _ => True
  | ERef (RVar x) => small x
  | ERef _ => True
  | EUn _ a => wfe a
  | EBin _ a b => wfe a /\ wfe b
  | EIf brs els =>
      (fix go (l : list (expr * expr)) : Prop :=
         match l with
         | [] => wfe els
         | (c, a) :: r => wfe c /\ wfe a /\ go r
         end) brs
  | EFun _ a => wfe a
  end.
Definition wfa (a : assign) : Prop := small (fst a) /\ wfe (snd a).

Definition with_sc (rm : menv) (sc : positive -> value) : menv :=
  {| m_sc := sc; m_der := m_der rm; m_arr := m_arr rm; m_i := m_i rm |}.

(* the Modelica environment rm, read off the CasADi point E: every PROGRAM variable holds the number
   E has for it (derivatives, arrays and loop index as in env_rel) *)
Definition at_point (rm : menv) (E : cenv) : Prop :=
  (forall y, small y -> m_sc rm y = VNum (c_sc E y)) /\
  (forall x, c_der E x = m_der rm x) /\
  (forall x k, c_arr E x (k - 1) = m_arr rm x k) /\
  c_i E = m_i rm.

Lemma Forall2_same_length {A B} (R : A -> B -> Prop) l l' : Forall2 R l l' -> length l = length l'.
Proof. induction 1 as [| a b l l' _ _ IH]; cbn [length]; [reflexivity | rewrite IH; reflexivity]. Qed.

Lemma Forall2_nil_inv_l {A B} (R : A -> B -> Prop) l' : Forall2 R [] l' -> l' = [].
Proof. intro H. inversion H. reflexivity. Qed.
Lemma Forall2_cons_inv_l {A B} (R : A -> B -> Prop) a l l' :
  Forall2 R (a :: l) l' -> exists b r, R a b /\ Forall2 R l r /\ l' = b :: r.
Proof.
  intro H. inversion H as [| ? b ? r Hab Hr]; subst.
  exists b, r. split; [exact Hab | split; [exact Hr | reflexivity]].
Qed.

Lemma map_pair_eta {A B} (l : list (A * B)) : map (fun p => (fst p, snd p)) l = l.
Proof. rewrite <- (map_id l) at 2. apply map_ext. intros []; reflexivity. Qed.

Lemma apply_assigns_app l1 l2 sigma :
  apply_assigns (l1 ++ l2) sigma = apply_assigns l2 (apply_assigns l1 sigma).
Proof.
  revert sigma. induction l1 as [| [x c] r IH]; intro sigma; cbn [app apply_assigns]; [reflexivity | apply IH].
Qed.

Lemma combine_app_single {A B} (l1 : list A) (l2 : list B) a b :
  length l1 = length l2 -> combine (l1 ++ [a]) (l2 ++ [b]) = combine l1 l2 ++ [(a, b)].
Proof.
  revert l2. induction l1 as [| x r IH]; intros [| y s] H; try discriminate H; cbn [app combine].
  - reflexivity.
  - f_equal. apply IH. injection H as H. exact H.
Qed.
(* the loop of exitIfStatement builds the nested if_else, first condition outermost *)
Lemma merge_cons c conds v vals :
  length vals = S (length conds) -> merge (c :: conds) (v :: vals) = CIfElse c v (merge conds vals).
Proof.
  intro H. unfold merge. cbn [rev]. rewrite <- (rev_length vals) in H.
  destruct (rev vals) as [| e rest]; [discriminate H |]. injection H as H. cbn [app].
  rewrite combine_app_single by (rewrite rev_length; symmetry; exact H).
  rewrite fold_left_app. reflexivity.
Qed.

Lemma bind_args_ext xs : forall vs g1 g2,
  (forall z, g1 z = g2 z) -> forall y, bind_args xs vs g1 y = bind_args xs vs g2 y.
Proof.
  induction xs as [| x xr IH]; intros [| v vr] g1 g2 Hg y; cbn [bind_args]; try apply Hg.
  apply IH. intro z. destruct (Pos.eqb z x); [reflexivity | apply Hg].
Qed.

Lemma Forall2_map_combine {A B C D E} (R : D -> E -> Prop) (f : A * B -> D) (f' : A * C -> E)
      (s : B -> C) bs :
  (forall a b, In b bs -> R (f (a, b)) (f' (a, s b))) ->
  forall l, Forall2 R (map f (combine l bs)) (map f' (combine l (map s bs))).
Proof.
  induction bs as [| b bs IH]; intros H [| a l]; cbn [map combine]; constructor.
  - apply H. left. reflexivity.
  - apply IH. intros a' b' Hb'. apply H. right. exact Hb'.
Qed.

Lemma env_rel_num rm rc : env_rel rm rc -> forall z, c_sc rc z = num_of (m_sc rm z).
Proof. intros [H _] z. specialize (H z). destruct (m_sc rm z); exact H. Qed.

Section FunSound.
Variable F : positive -> Qc -> Qc.
Variable T : table.
Hypothesis HT : table_ok T = true.

Lemma m_eval_agree rm sc : (forall y, small y -> m_sc rm y = sc y) ->
  forall e, wfe e -> m_eval F e rm = m_eval F e (with_sc rm sc).
Proof.
  intros A e.
  induction e using expr_ind'; intro W.
  - reflexivity.
  - reflexivity.
  - cbn [m_eval]. f_equal. destruct r; try reflexivity. exact (A x W).
  - cbn [m_eval]. rewrite (IHe W). reflexivity.
  - destruct W as [W1 W2]. cbn [m_eval]. rewrite (IHe1 W1), (IHe2 W2). reflexivity.
  - exact (IHe W).
  - destruct W as (Wc & Wa & Wr). rewrite !m_eval_if_cons, (IHe1 Wc), (IHe2 Wa), (IHe3 Wr). reflexivity.
  - cbn [m_eval]. rewrite (IHe W). reflexivity.
Qed.

Lemma expr_at rm E e ce v :
  at_point rm E -> wfe e -> tr T e = Ok ce -> m_eval F e rm = Some v ->
  exists w, ca_eval F ce E = Some w /\ enc_rel v w.
Proof.
  intros [H1 Hrest] W Htr Me.
  rewrite (m_eval_agree rm (fun y => VNum (c_sc E y)) H1 e W) in Me.
  refine (expr_sound F T HT _ E _ e ce Htr v Me).
  split; [intro x; reflexivity | exact Hrest].
Qed.

Lemma bind_i_eval v c rho : ca_eval F (bind_i v c) rho = ca_eval F c (with_ci rho v).
Proof.
  induction c as [q | s | a IH | a IH | n a IHa b IHb | c IHc a IHa b IHb | f a IH];
    cbn [bind_i ca_eval].
  - reflexivity.
  - destruct s; reflexivity.
  - rewrite IH. reflexivity.
  - rewrite IH. reflexivity.
  - rewrite IHa, IHb. reflexivity.
  - rewrite IHc, IHa, IHb. reflexivity.
  - rewrite IH. reflexivity.
Qed.

(* every entry of sigma is defined at rc, temporaries included *)
Definition has_values (sigma : positive -> caexpr) (rc : cenv) (g : positive -> Qc) : Prop :=
  forall y, ca_eval F (sigma y) rc = Some (g y).

Lemma subst_eval sigma rc g : has_values sigma rc g ->
  forall c, ca_eval F (subst sigma c) rc = ca_eval F c (set_sc rc g (c_i rc)).
Proof.
  intros Hs c.
  induction c as [q | s | a IH | a IH | n a IHa b IHb | c IHc a IHa b IHb | f a IH];
    cbn [subst ca_eval].
  - reflexivity.
  - destruct s; try reflexivity. apply Hs.
  - rewrite IH. reflexivity.
  - rewrite IH. reflexivity.
  - rewrite IHa, IHb. reflexivity.
  - rewrite IHc, IHa, IHb. reflexivity.
  - rewrite IH. reflexivity.
Qed.

Lemma has_values_set sigma rc g x c q :
  has_values sigma rc g -> ca_eval F c (set_sc rc g (c_i rc)) = Some q ->
  has_values (sigma_set sigma x (subst sigma c)) rc (fun y => if Pos.eqb y x then q else g y).
Proof.
  intros Hg Hc y. unfold sigma_set. destruct (Pos.eqb y x); [| apply Hg].
  rewrite (subst_eval sigma rc g Hg). exact Hc.
Qed.

(* rm is read off the input point rc with the scalars replaced by the numbers of get_function's `values`
   dict sigma; i is the loop index of rm (that of rc, except inside an unrolled iteration) *)
Definition Inv (i : Z) (sigma : positive -> caexpr) (rm : menv) (rc : cenv) : Prop :=
  exists g, has_values sigma rc g /\ at_point rm (set_sc rc g i).

Lemma inv_sigma0 rm E : at_point rm E -> Inv (c_i E) sigma0 rm E.
Proof. intro H. exists (c_sc E). split; [intro y; reflexivity | exact H]. Qed.

Lemma inv_value i sigma rm rc : Inv i sigma rm rc ->
  forall x, small x -> exists q, m_sc rm x = VNum q /\ ca_eval F (sigma x) rc = Some q.
Proof. intros (g & Hg & H1 & _) x Hx. exists (g x). split; [exact (H1 x Hx) | exact (Hg x)]. Qed.

Lemma inv_mi i sigma rm rc : Inv i sigma rm rc -> m_i rm = i.
Proof. intros (g & _ & _ & _ & _ & Hi). symmetry. exact Hi. Qed.

Lemma inv_with_mi i j sigma rm rc : Inv i sigma rm rc -> Inv j sigma (with_mi rm j) rc.
Proof.
  intros (g & Hg & H1 & H2 & H3 & _). exists g.
  split; [exact Hg | split; [exact H1 | split; [exact H2 | split; [exact H3 | reflexivity]]]].
Qed.

Lemma tr_assigns_Forall2 l : forall cl, tr_assigns T l = Ok cl ->
  Forall2 (fun a xc => fst xc = fst a /\ tr T (snd a) = Ok (snd xc)) l cl.
Proof.
  induction l as [| [x e] r IH]; cbn [tr_assigns]; intros cl H.
  - injection H as <-. constructor.
  - apply ok_inv in H as (c & Ee & H). apply ok_inv in H as (cr & Er & H). injection H as <-.
    constructor; [split; [reflexivity | exact Ee] | exact (IH cr Er)].
Qed.
Lemma tr_conds_Forall2 l cs : tr_conds T l = Ok cs -> Forall2 (fun e c => tr T e = Ok c) l cs.
Proof. exact (res_list_Forall2 (tr T) (tr_conds T) eq_refl (fun _ _ => eq_refl) l cs). Qed.
Lemma tr_blocks_Forall2 l cl : tr_blocks T l = Ok cl -> Forall2 (fun b cb => tr_assigns T b = Ok cb) l cl.
Proof. exact (res_list_Forall2 (tr_assigns T) (tr_blocks T) eq_refl (fun _ _ => eq_refl) l cl). Qed.

Lemma tr_assigns_fst l cl : tr_assigns T l = Ok cl -> map fst cl = map fst l.
Proof.
  intro H. apply tr_assigns_Forall2 in H. induction H as [| a xc r cr [E _] _ IH]; [reflexivity |].
  cbn [map]. rewrite E, IH. reflexivity.
Qed.

Lemma tr_blocks_hd l cl :
  Forall2 (fun b cb => tr_assigns T b = Ok cb) l cl -> map fst (hd [] cl) = map fst (hd [] l).
Proof. intros [| b cb r cr E _]; [reflexivity | exact (tr_assigns_fst b cb E)]. Qed.

(* a block of assignments executed with loop index i; emit c is the graph emitted for a right-hand
   side translated to c: c itself outside a for-statement, bind_i i c in iteration i *)
Lemma block_sound (emit : caexpr -> caexpr) i rc
      (Hemit : forall g c, ca_eval F (emit c) (set_sc rc g (c_i rc)) = ca_eval F c (set_sc rc g i)) l cl :
  tr_assigns T l = Ok cl ->
  forall sigma rm rm', Forall wfa l -> Inv i sigma rm rc -> exec_assigns F l rm = Some rm' ->
  Inv i (apply_assigns (map (fun xc => (fst xc, emit (snd xc))) cl) sigma) rm' rc.
Proof.
  intro Htr. apply tr_assigns_Forall2 in Htr.
  induction Htr as [| [x e] [x' ce] r cr [Ex Ee] _ IH];
    intros sigma rm rm' W HI Hex; cbn [exec_assigns] in Hex.
  - injection Hex as <-. exact HI.
  - cbn [fst snd] in Ex, Ee. subst x'. destruct (Forall_inv W) as [_ We]. cbn [snd] in We.
    destruct HI as (g & Hg & Hat). unfold exec_assign in Hex. cbn [fst snd] in Hex.
    destruct (m_eval F e rm) as [[q | b] |] eqn:Me; try discriminate Hex.
    destruct (expr_at rm _ e ce _ Hat We Ee Me) as (w & Ew & Rw). cbn [enc_rel] in Rw. subst w.
    cbn [map apply_assigns fst snd]. apply (IH _ (m_set rm x q) rm' (Forall_inv_tail W)); [| exact Hex].
    exists (fun y => if Pos.eqb y x then q else g y). split.
    + apply (has_values_set sigma rc g x (emit ce) q Hg). rewrite Hemit. exact Ew.
    + destruct Hat as [H1 Hrest]. split; [| exact Hrest].
      intros y Hy. cbn [m_set m_sc set_sc c_sc]. destruct (Pos.eqb y x); [reflexivity | exact (H1 y Hy)].
Qed.

Lemma assigns_sound l sigma rm rc cl rm' :
  Forall wfa l -> Inv (c_i rc) sigma rm rc -> tr_assigns T l = Ok cl ->
  exec_assigns F l rm = Some rm' -> Inv (c_i rc) (apply_assigns cl sigma) rm' rc.
Proof.
  intros W HI Htr Hex. rewrite <- (map_pair_eta cl).
  exact (block_sound (fun c => c) (c_i rc) rc (fun g c => eq_refl) l cl Htr sigma rm rm' W HI Hex).
Qed.

Lemma fold_exec_iter_none body vals : fold_left (exec_iter F body) vals None = None.
Proof. induction vals as [| v vs IH]; [reflexivity | exact IH]. Qed.

(* the whole for-statement: iterations in order, within each iteration the statements in order —
   exactly the order in which `unroll` (exitForStatement) lists the assignments *)
Lemma loop_sound i body cb rc vals : forall sigma rm rm',
  Forall wfa body -> Inv i sigma rm rc -> tr_assigns T body = Ok cb ->
  fold_left (exec_iter F body) vals (Some rm) = Some rm' ->
  Inv i (apply_assigns (unroll vals cb) sigma) rm' rc.
Proof.
  induction vals as [| v vs IH]; intros sigma rm rm' W HI Htr Hex; cbn [fold_left exec_iter] in Hex.
  - injection Hex as <-. exact HI.
  - destruct (exec_assigns F body (with_mi rm v)) as [r' |] eqn:E1;
      [| rewrite fold_exec_iter_none in Hex; discriminate Hex].
    rewrite (inv_mi i sigma rm rc HI) in Hex.
    (* iteration v runs with the index set to v and restores it afterwards *)
    pose proof (block_sound (bind_i v) v rc (fun g c => bind_i_eval v c _) body cb Htr
                  sigma (with_mi rm v) r' W (inv_with_mi i v sigma rm rc HI) E1) as HI1.
    unfold unroll. cbn [flat_map]. rewrite apply_assigns_app.
    exact (IH _ (with_mi r' i) rm' W (inv_with_mi v i _ r' rc HI1) Htr Hex).
Qed.

(* frame: a block of assignments changes only scalars, and among them only its own left-hand sides *)
Lemma exec_assigns_frame l : forall rm rm', exec_assigns F l rm = Some rm' ->
  rm' = with_sc rm (m_sc rm') /\ forall y, ~ In y (map fst l) -> m_sc rm' y = m_sc rm y.
Proof.
  induction l as [| [x e] r IH]; intros rm rm' H; cbn [exec_assigns] in H.
  - injection H as <-. split; [destruct rm; reflexivity | reflexivity].
  - unfold exec_assign in H. cbn [fst snd] in H.
    destruct (m_eval F e rm) as [[q | b] |]; try discriminate H.
    destruct (IH _ _ H) as [A0 A1]. split; [exact A0 |].
    intros y Hy. rewrite A1 by (intro Hr; apply Hy; right; exact Hr). cbn [m_set m_sc].
    destruct (Pos.eqb y x) eqn:E; [| reflexivity]. apply Pos.eqb_eq in E. exfalso. apply Hy. left. symmetry. exact E.
Qed.

(* well-formed if-statement: program variables only, and every branch assigns (a subset of) the
   variables of the first branch — the generator checks the other inclusion *)
Definition blocks_of (brs : list (expr * list assign)) (els : list assign) : list (list assign) :=
  map snd brs ++ [els].
Definition if_ok (brs : list (expr * list assign)) (els : list assign) : Prop :=
  Forall (fun b => wfe (fst b) /\ Forall wfa (snd b)) brs /\ Forall wfa els /\
  Forall (fun blk => forall x, In x (map fst blk) -> In x (map fst (hd [] (blocks_of brs els))))
         (blocks_of brs els).

Lemma if_ok_first_small brs els :
  if_ok brs els -> forall x, In x (map fst (hd [] (blocks_of brs els))) -> small x.
Proof.
  intros (Wb & We & _) x Hx. apply in_map_iff in Hx. destruct Hx as (a & <- & Ha).
  assert (Forall wfa (hd [] (blocks_of brs els))) as Wh
    by (destruct Wb as [| b r [_ W] _]; [exact We | exact W]).
  rewrite Forall_forall in Wh. exact (proj1 (Wh a Ha)).
Qed.

Lemma exec_if_block brs els rm rm' :
  exec_stmt F (SIf brs els) rm = Some rm' ->
  exists blk, In blk (blocks_of brs els) /\ exec_assigns F blk rm = Some rm'.
Proof.
  unfold blocks_of. induction brs as [| [c b] r IH]; cbn [exec_stmt map app]; intro H.
  - exists els. split; [left; reflexivity | exact H].
  - destruct (m_eval F c rm) as [[q | [|]] |]; try discriminate H.
    + exists b. split; [left; reflexivity | exact H].
    + destruct (IH H) as (blk & Hin & He). exists blk. split; [right; exact Hin | exact He].
Qed.

Lemma block_value x blk cb E rm rm' :
  small x -> at_point rm E -> Forall wfa blk -> tr_assigns T blk = Ok cb ->
  exec_assigns F blk rm = Some rm' ->
  exists q, m_sc rm' x = VNum q /\ ca_eval F (apply_assigns cb sigma0 x) E = Some q.
Proof.
  intros Hx HE W Htr Hex.
  exact (inv_value _ _ _ _ (assigns_sound blk sigma0 rm E cb rm' W (inv_sigma0 rm E HE) Htr Hex) x Hx).
Qed.

(* at a point E holding the pre-if values the merged graph of x has the value x has after the if-statement *)
Lemma select_sound x els E rm rm' (Hx : small x) (HE : at_point rm E) (We : Forall wfa els) :
  forall brs conds blocks,
  Forall (fun b => wfe (fst b) /\ Forall wfa (snd b)) brs ->
  Forall2 (fun e c => tr T e = Ok c) (map fst brs) conds ->
  Forall2 (fun b cb => tr_assigns T b = Ok cb) (blocks_of brs els) blocks ->
  exec_stmt F (SIf brs els) rm = Some rm' ->
  exists q, m_sc rm' x = VNum q /\
    ca_eval F (merge conds (map (fun cb => apply_assigns cb sigma0 x) blocks)) E = Some q.
Proof.
  unfold blocks_of.
  induction brs as [| [c blk] r IH]; intros conds blocks Wb Hc Hb Hex; cbn [map fst snd app] in Hc, Hb.
  - apply Forall2_nil_inv_l in Hc as ->.
    apply Forall2_cons_inv_l in Hb as (cels & bl & Eels & Hnil & ->). apply Forall2_nil_inv_l in Hnil as ->.
    exact (block_value x els cels E rm rm' Hx HE We Eels Hex).
  - apply Forall2_cons_inv_l in Hc as (cc & cr & Ec & Hcr & ->).
    apply Forall2_cons_inv_l in Hb as (cb & clr & Eb & Hbr & ->).
    pose proof (Forall_inv Wb) as [Wc Wblk]. cbn [fst snd] in Wc, Wblk. cbn [exec_stmt] in Hex.
    destruct (m_eval F c rm) as [[qv | b] |] eqn:Mc; try discriminate Hex.
    destruct (expr_at rm E c cc _ HE Wc Ec Mc) as (w & Ew & Rw).
    cbn [map]. rewrite merge_cons.
    2: { rewrite map_length, <- (Forall2_same_length _ _ _ Hbr), <- (Forall2_same_length _ _ _ Hcr),
           app_length, !map_length. apply Nat.add_1_r. }
    cbn [ca_eval]. rewrite Ew, (enc_test b w Rw).
    destruct b; cbn [negb].
    + exact (block_value x blk cb E rm rm' Hx HE Wblk Eb Hex).
    + exact (IH cr clr (Forall_inv_tail Wb) Hcr Hbr Hex).
Qed.

(* assignments n x := m x whose graphs read nothing outside the kept names Q, none of which they assign,
   act simultaneously *)
Lemma independent_assigns rc (Q : positive -> Prop) (n : positive -> positive) (m : positive -> caexpr)
      (v : positive -> Qc) (Hn : forall x y, n x = n y -> x = y) sigma g (Hg : has_values sigma rc g) xs :
  (forall x, In x xs -> ~ Q (n x)) ->
  (forall g', (forall y, Q y -> g' y = g y) ->
     forall x, In x xs -> ca_eval F (m x) (set_sc rc g' (c_i rc)) = Some (v x)) ->
  exists g', has_values (apply_assigns (map (fun x => (n x, m x)) xs) sigma) rc g' /\
    (forall x, In x xs -> g' (n x) = v x) /\ (forall y, Q y -> g' y = g y).
Proof.
  induction xs as [| x0 xs IH] using rev_ind; intros HQ Hm.
  - exists g. split; [exact Hg | split; [intros x [] | reflexivity]].
  - destruct IH as (g1 & Hg1 & V1 & U1).
    { intros x Hx. apply HQ, in_or_app. left. exact Hx. }
    { intros g' Hg' x Hx. apply (Hm g' Hg'), in_or_app. left. exact Hx. }
    assert (In x0 (xs ++ [x0])) as H0 by (apply in_or_app; right; left; reflexivity).
    rewrite map_app, apply_assigns_app. cbn [map apply_assigns].
    exists (fun y => if Pos.eqb y (n x0) then v x0 else g1 y). split; [| split].
    + exact (has_values_set _ rc g1 (n x0) (m x0) (v x0) Hg1 (Hm g1 U1 x0 H0)).
    + intros x Hx. destruct (Pos.eqb (n x) (n x0)) eqn:E.
      * apply Pos.eqb_eq, Hn in E. subst x. reflexivity.
      * apply V1. apply in_app_or in Hx. destruct Hx as [Hx | [<- | []]]; [exact Hx |].
        rewrite Pos.eqb_refl in E. discriminate E.
    + intros y Hy. destruct (Pos.eqb y (n x0)) eqn:E; [| exact (U1 y Hy)].
      apply Pos.eqb_eq in E. subst y. destruct (HQ x0 H0 Hy).
Qed.

(* the two phases of the repaired exitIfStatement assign all variables at once *)
Lemma simultaneous_assign rc (m : positive -> caexpr) (q : positive -> Qc) xs sigma g :
  (forall x, In x xs -> small x) -> has_values sigma rc g ->
  (forall g', (forall y, small y -> g' y = g y) ->
     forall x, In x xs -> ca_eval F (m x) (set_sc rc g' (c_i rc)) = Some (q x)) ->
  exists g', has_values (apply_assigns (map (fun x => (tmp_of x, m x)) xs ++
                                        map (fun x => (x, CSym (SVar (tmp_of x)))) xs) sigma) rc g' /\
    (forall x, In x xs -> g' x = q x) /\ (forall y, small y -> ~ In y xs -> g' y = g y).
Proof.
  intros Hs Hg Hm. rewrite apply_assigns_app.
  (* temporaries := merged graphs, keeping the program variables *)
  destruct (independent_assigns rc small tmp_of m q tmp_inj sigma g Hg xs) as (g1 & Hg1 & V1 & U1).
  { intros x _. apply tmp_not_small. }
  { exact Hm. }
  (* variables := temporaries, keeping everything but the variables *)
  destruct (independent_assigns rc (fun y => ~ In y xs) (fun x => x) (fun x => CSym (SVar (tmp_of x)))
              (fun x => g1 (tmp_of x)) (fun x y H => H) _ g1 Hg1 xs) as (g2 & Hg2 & V2 & U2).
  { intros x Hx H. exact (H Hx). }
  { intros g' Hg' x Hx. cbn [ca_eval c_sym set_sc c_sc]. f_equal. apply Hg'.
    intro H. exact (tmp_not_small x (Hs _ H)). }
  exists g2. split; [exact Hg2 | split].
  - intros x Hx. rewrite (V2 x Hx). exact (V1 x Hx).
  - intros y Hy Hn. rewrite (U2 y Hn). exact (U1 y Hy).
Qed.

Lemma if_phases_sound (merged : positive -> caexpr) brs els sigma rm rc rm' :
  if_ok brs els -> Inv (c_i rc) sigma rm rc -> exec_stmt F (SIf brs els) rm = Some rm' ->
  (forall E x, at_point rm E -> small x ->
     exists q, m_sc rm' x = VNum q /\ ca_eval F (merged x) E = Some q) ->
  Inv (c_i rc) (apply_assigns (map (fun x => (tmp_of x, merged x)) (map fst (hd [] (blocks_of brs els))) ++
                               map (fun x => (x, CSym (SVar (tmp_of x)))) (map fst (hd [] (blocks_of brs els))))
                              sigma) rm' rc.
Proof.
  intros Hok (g & Hg & H1 & Hrest) Hex Hval.
  pose proof (if_ok_first_small brs els Hok) as Hsm. destruct Hok as (_ & _ & Wsub).
  set (xs := map fst (hd [] (blocks_of brs els))) in *.
  assert (forall g', (forall y, small y -> g' y = g y) -> at_point rm (set_sc rc g' (c_i rc))) as Hat.
  { intros g' Hg'. split; [| exact Hrest].
    intros y Hy. cbn [set_sc c_sc]. rewrite (Hg' y Hy). exact (H1 y Hy). }
  destruct (simultaneous_assign rc merged (fun x => num_of (m_sc rm' x)) xs sigma g Hsm Hg)
    as (g2 & Hg2 & V & U).
  { intros g' Hg' x Hx. destruct (Hval _ x (Hat g' Hg') (Hsm x Hx)) as (q & -> & Eq). exact Eq. }
  (* the executed block assigns variables of the first block only *)
  destruct (exec_if_block brs els rm rm' Hex) as (blk & Hin & Hblk).
  destruct (exec_assigns_frame blk rm rm' Hblk) as [F0 F1].
  rewrite Forall_forall in Wsub.
  exists g2. split; [exact Hg2 |]. rewrite F0. split; [| exact Hrest].
  intros y Hy. cbn [with_sc m_sc set_sc c_sc]. destruct (in_dec Pos.eq_dec y xs) as [Hy' | Hn].
  - rewrite (V y Hy'). destruct (Hval _ y (Hat g (fun _ _ => eq_refl)) Hy) as (q & -> & _). reflexivity.
  - rewrite (U y Hy Hn), F1; [exact (H1 y Hy) |]. intro Hyb. exact (Hn (Wsub blk Hin y Hyb)).
Qed.

Lemma if_sound brs els sigma rm rc l rm' :
  if_ok brs els -> Inv (c_i rc) sigma rm rc ->
  tr_stmt T true (SIf brs els) = Ok l -> exec_stmt F (SIf brs els) rm = Some rm' ->
  Inv (c_i rc) (apply_assigns l sigma) rm' rc.
Proof.
  intros Hok HI Htr Hex. cbn [tr_stmt] in Htr.
  destruct (forallb _ brs); [| discriminate Htr].
  destruct (tr_conds T (map fst brs)) as [conds |] eqn:Hc; [| discriminate Htr].
  destruct (tr_blocks T (map snd brs ++ [els])) as [blocks |] eqn:Hb; [| discriminate Htr].
  cbv zeta in Htr.
  match type of Htr with (if ?b then _ else _) = _ => destruct b; [| discriminate Htr] end. injection Htr as <-.
  apply tr_conds_Forall2 in Hc. apply tr_blocks_Forall2 in Hb. rewrite (tr_blocks_hd _ _ Hb).
  apply (if_phases_sound _ brs els sigma rm rc rm' Hok HI Hex). intros E x HE Hx.
  rewrite map_map. destruct Hok as (Wb & We & _).
  exact (select_sound x els E rm rm' Hx HE We brs conds blocks Wb Hc Hb Hex).
Qed.

(* sq = which exitIfStatement (Model/C11_functions.v tr_stmt); if-statements are covered for the
   repaired translation only *)
Definition stmt_ok (sq : bool) (s : stmt) : Prop :=
  match s with
  | SAssign a => wfa a
  | SIf brs els => sq = true /\ if_ok brs els
  | SFor _ _ _ body => Forall wfa body
  end.

Lemma stmt_sound sq s sigma rm rc l rm' :
  stmt_ok sq s -> Inv (c_i rc) sigma rm rc -> tr_stmt T sq s = Ok l -> exec_stmt F s rm = Some rm' ->
  Inv (c_i rc) (apply_assigns l sigma) rm' rc.
Proof.
  destruct s as [a | brs els | lo st hi body]; intros Hok HI Htr Hex.
  - apply (assigns_sound [a] sigma rm rc l rm' (Forall_cons a Hok (Forall_nil _)) HI Htr).
    cbn [exec_stmt] in Hex. cbn [exec_assigns]. rewrite Hex. reflexivity.
  - destruct Hok as [-> Hok]. exact (if_sound brs els sigma rm rc l rm' Hok HI Htr Hex).
  - cbn [tr_stmt exec_stmt stmt_ok] in Htr, Hex, Hok.
    destruct (st =? 0)%Z eqn:Est; [discriminate Hex |]. apply Z.eqb_neq in Est.
    apply ok_inv in Htr as (cb & Eb & Htr). injection Htr as <-.
    rewrite (range_values_modelica lo st hi Est).
    exact (loop_sound (c_i rc) body cb rc _ sigma rm rm' Hok HI Eb Hex).
Qed.

Lemma stmts_sound sq body : forall sigma rm rc l rm',
  Forall (stmt_ok sq) body -> Inv (c_i rc) sigma rm rc -> tr_stmts T sq body = Ok l ->
  exec F body rm = Some rm' -> Inv (c_i rc) (apply_assigns l sigma) rm' rc.
Proof.
  induction body as [| s r IH]; intros sigma rm rc l rm' Hok HI Htr Hex; cbn [tr_stmts exec] in Htr, Hex.
  - injection Htr as <-. injection Hex as <-. exact HI.
  - apply ok_inv in Htr as (ls & Es & Htr). apply ok_inv in Htr as (lr & Er & Htr). injection Htr as <-.
    apply some_inv in Hex as (rm1 & E1 & Hex).
    rewrite apply_assigns_app. apply (IH _ rm1 rc lr rm' (Forall_inv_tail Hok)); [| exact Er | exact Hex].
    exact (stmt_sound sq s sigma rm rc ls rm1 (Forall_inv Hok) HI Es E1).
Qed.

(* the initial point: every function variable has a number, the same on both sides *)
Definition init_rel (rm : menv) (rc : cenv) : Prop :=
  (forall y, m_sc rm y = VNum (c_sc rc y)) /\
  (forall x, c_der rc x = m_der rm x) /\
  (forall x k, c_arr rc x (k - 1) = m_arr rm x k) /\
  m_i rm = c_i rc.

Lemma function_sound sq body l rm rc rm' :
  Forall (stmt_ok sq) body -> init_rel rm rc -> tr_stmts T sq body = Ok l -> exec F body rm = Some rm' ->
  forall x, small x -> exists q, m_sc rm' x = VNum q /\ ca_eval F (apply_assigns l sigma0 x) rc = Some q.
Proof.
  intros Hok (H1 & H2 & H3 & Hi) Htr Hex.
  assert (at_point rm rc) as Hat
    by (split; [intros y _; exact (H1 y) | split; [exact H2 | split; [exact H3 | symmetry; exact Hi]]]).
  exact (inv_value _ _ _ _ (stmts_sound sq body sigma0 rm rc l rm' Hok (inv_sigma0 rm rc Hat) Htr Hex)).
Qed.

Lemma call_init rm rc (HE : env_rel rm rc) f vs :
  init_rel (m_fun_env f vs rm) (set_sc rc (bind_args (f_in f) vs (c_sc rc)) (c_i rc)).
Proof.
  pose proof (env_rel_num rm rc HE) as Hnum. destruct HE as (_ & H2 & H3 & H4).
  split; [| split; [exact H2 | split; [exact H3 | symmetry; exact H4]]].
  intro y. cbn [m_fun_env m_sc set_sc c_sc]. f_equal. apply bind_args_ext. intro z. symmetry. apply Hnum.
Qed.

Lemma args_sound rm rc (HE : env_rel rm rc) args cargs :
  tr_exprs T args = Ok cargs -> forall vs,
  all_some (map (fun a => match m_eval F a rm with Some (VNum v) => Some v | _ => None end) args) = Some vs ->
  all_some (map (fun c => ca_eval F c rc) cargs) = Some vs.
Proof.
  intro Htr. apply tr_conds_Forall2 in Htr. induction Htr as [| a ca r cr Ea _ IH]; intros vs Hm;
    cbn [map all_some] in Hm |- *.
  - exact Hm.
  - destruct (m_eval F a rm) as [[v | b] |] eqn:Ma; try discriminate Hm.
    destruct (all_some (map _ r)) as [vr |]; [| discriminate Hm]. injection Hm as <-.
    destruct (expr_sound F T HT rm rc HE a ca Ea _ Ma) as (w & Ew & Rw). cbn [enc_rel] in Rw. subst w.
    rewrite Ew, (IH vr eq_refl). reflexivity.
Qed.

Definition func_ok (sq : bool) (f : func) : Prop :=
  Forall (stmt_ok sq) (f_body f) /\ Forall small (f_out f).

Lemma call_sound sq rm rc (HE : env_rel rm rc) lhs f args r ms :
  func_ok sq f ->
  ca_call_res F T sq (lhs, f, args) rc = Ok r -> m_call_res F (lhs, f, args) rm = Some ms ->
  exists cs, r = Some cs /\ Forall2 agrees ms cs.
Proof.
  intros [Wb Wo] Hc Hm. unfold ca_call_res, tr_func in Hc. unfold m_call_res in Hm.
  destruct (tr_stmts T sq (f_body f)) as [l |] eqn:El; [| discriminate Hc].
  destruct (tr_exprs T args) as [cargs |] eqn:Ea; [| discriminate Hc].
  destruct (all_some (map _ args)) as [vs |] eqn:Mv; [| discriminate Hm].
  rewrite (args_sound rm rc HE args cargs Ea vs Mv) in Hc. injection Hc as <-.
  destruct (exec F (f_body f) (m_fun_env f vs rm)) as [rout |] eqn:Ex; [| discriminate Hm].
  injection Hm as <-.
  eexists. split; [reflexivity |].
  (* entry by entry: y_j - out_j, for as many outputs as there are left-hand sides *)
  apply Forall2_map_combine. intros y o Ho. cbn [fst snd]. rewrite Forall_forall in Wo.
  destruct (function_sound sq (f_body f) l _ _ rout Wb (call_init rm rc HE f vs) El Ex o (Wo o Ho))
    as (q & -> & ->).
  intros d Hd. rewrite (env_rel_num rm rc HE y). destruct (m_sc rm y) as [lq | b]; [exact Hd | discriminate Hd].
Qed.

End FunSound.

(* statement-major unrolling (all iterations of statement 1, then of statement 2) — the seeded
   change /verif/seeded/C11/m2 *)
Definition unroll_stmt_major (vals : list Z) (body : list cassign) : list cassign :=
  flat_map (fun xc => map (fun v => (fst xc, bind_i v (snd xc))) vals) body.

(* for i in 1:2 loop a := a + i*b; b := a - b; end for;  with a = 1, b = 1 initially *)
Definition order_body : list assign :=
  [(1%positive, EBin BAdd (ERef (RVar 1%positive)) (EBin BMul (ERef RLoopVar) (ERef (RVar 2%positive))));
   (2%positive, EBin BSub (ERef (RVar 1%positive)) (ERef (RVar 2%positive)))].
Definition order_rc : cenv := {| c_sc := fun _ => 1; c_der := fun _ => 0; c_arr := fun _ _ => 0; c_i := 0%Z |}.
Definition order_rm : menv := {| m_sc := fun _ => VNum 1; m_der := fun _ => 0; m_arr := fun _ _ => 0; m_i := 0%Z |}.
Definition qc_is (o : option Qc) (z : Z) : bool :=
  match o with Some q => qeqb q (z2q z) | None => false end.
Definition val_is (o : option menv) (x : positive) (z : Z) : bool :=
  match o with
  | Some r => match m_sc r x with VNum q => qeqb q (z2q z) | _ => false end
  | None => false
  end.

(* if a > 0 then a := a - 5; b := 1; else a := a; b := 2; end if;   from a = b = 3 *)
Definition ifdep_stmt : stmt :=
  SIf [(EBin BGt (ERef (RVar 1%positive)) (ENum 0),
        [(1%positive, EBin BSub (ERef (RVar 1%positive)) (ENum (z2q 5))); (2%positive, ENum 1)])]
      [(1%positive, ERef (RVar 1%positive)); (2%positive, ENum (z2q 2))].
Definition ifdep_rc : cenv := {| c_sc := fun _ => z2q 3; c_der := fun _ => 0; c_arr := fun _ _ => 0; c_i := 0%Z |}.
Definition ifdep_rm : menv := {| m_sc := fun _ => VNum (z2q 3); m_der := fun _ => 0; m_arr := fun _ _ => 0; m_i := 0%Z |}.
