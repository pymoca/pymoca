(* C04 — the walk of one class definition (Model/C04_listener.v).
   The state-passing listener is related to a declarative reading of the class syntax: per declarator one symbol
   (spec_sym), per section its effective visibility (eff_vis), per class the equations / statements of the initial
   and non-initial sections in source order (sel).  The results of the walk with order numbers and object identities
   erased are the declarative results, and erasing commutes with the visibility assignment (class_ok).
   Then the stamps of the copies of exitComponent_clause (incr_from) and the witness texts of Props/C04.v. *)
From Coq Require Import String List Bool Arith Lia.
From PV Require Import Model.C04_listener.
Import ListNotations.
Open Scope string_scope.
Open Scope list_scope.

Definition spec_cm (m : option modif) : option omod :=
  match m with
  | None => None
  | Some (Modif cm val) =>
      match cm, val with
      | None, None => None
      | Some a, None => Some (OCM (map conv_arg a))
      | None, Some e => Some (OCM [value_arg e])
      | Some a, Some e => Some (OCM (map conv_arg a ++ [value_arg e]))
      end
  end.

Definition spec_dims (v : variant) (cl : clause) (d : declr) : list (list expr) :=
  match c_dims cl, d_dims d with
  | None, None => default_dims
  | None, Some own => [own]
  | Some c, None => [c]
  | Some c, Some own => if v_dimsmerge v then [own ++ c] else [c]
  end.

(* a symbol without its order number and object identities *)
Definition erase_sym (s : osym) : osym :=
  mkS (s_name s) (s_type s) (s_prefixes s) (s_dims s) (s_vis s) 0 (s_comment s) (s_cm s) 0 0 0.
Definition spec_sym (v : variant) (vs : vis) (cl : clause) (d : declr) : osym :=
  mkS (d_name d) (c_type cl) (c_prefixes cl) (spec_dims v cl d) vs 0 (d_comment d) (spec_cm (d_mod d)) 0 0 0.

Definition sel (init : bool) (secs : list (bool * list expr)) : list expr :=
  concat (map snd (filter (fun s => Bool.eqb (fst s) init) secs)).

(* effective visibility of each section: with the repair its label; without it a public / protected
   section followed by another one of the same label is not labelled at all (stays PRIVATE) *)
Definition has_label {X : Type} (lb : label) (secs : list (label * X)) : bool :=
  existsb (fun s => label_eqb lb (fst s)) secs.
Fixpoint eff_vis {X : Type} (v : variant) (secs : list (label * X)) : list vis :=
  match secs with
  | [] => []
  | (lb, _) :: r =>
      (if v_allsec v then vis_of_label lb
       else match lb with Unl => Private | _ => if has_label lb r then Private else vis_of_label lb end)
      :: eff_vis v r
  end.

Lemma decl_cm_spec m : decl_cm m = spec_cm m.
Proof. destruct m as [[cm val]|]; [|reflexivity]. destruct cm, val; reflexivity. Qed.

Lemma split_init_gen secs a b :
  fold_left (fun (acc : list expr * list expr) (s : bool * list expr) =>
               if fst s then (fst acc, snd acc ++ snd s) else (fst acc ++ snd s, snd acc)) secs (a, b)
  = (a ++ sel false secs, b ++ sel true secs).
Proof.
  revert a b. induction secs as [|[i xs] r IH]; intros a b; cbn [fold_left].
  - unfold sel; cbn. now rewrite !app_nil_r.
  - destruct i; cbn [fst snd]; rewrite IH; unfold sel; cbn; now rewrite <- ?app_assoc.
Qed.

Lemma split_init_spec secs : split_init secs = (sel false secs, sel true secs).
Proof. apply split_init_gen. Qed.

Lemma finish_class_eq v path ct cm srs k eqs algs :
  finish_class v path ct cm srs k eqs algs
  = mkO path ct cm (syms_of (concat (assign_vis v srs))) (exts_of (concat (assign_vis v srs))) (k_imports k)
        (k_classes k) (sel false eqs) (sel true eqs) (sel false algs) (sel true algs).
Proof. unfold finish_class. now rewrite !split_init_spec. Qed.

(* each level of the listener (elements, sections, a file) is an instance *)
Lemma mapM_run {A B S : Type} (f : A -> S -> result (B * S)) (R : S -> list A -> list B -> S -> Prop) :
  (forall s, R s [] [] s) ->
  (forall s xs bs s1 ys cs s2, R s xs bs s1 -> R s1 ys cs s2 -> R s (xs ++ ys) (bs ++ cs) s2) ->
  forall xs, Forall (fun x => forall s b s', f x s = Ok (b, s') -> R s [x] [b] s') xs ->
  forall s bs s', mapM f xs s = Ok (bs, s') -> R s xs bs s'.
Proof.
  intros Hnil Happ xs HF. induction HF as [|x r Hx _ IH]; intros s bs s' H; cbn [mapM] in H.
  - injection H as <- <-. apply Hnil.
  - destruct (f x s) as [[b s1]|] eqn:E1; [|discriminate].
    destruct (mapM f r s1) as [[bs1 s2]|] eqn:E2; [|discriminate].
    injection H as <- <-. apply (Happ s [x] [b] s1 r bs1 s2); auto.
Qed.

Definition on_snd {L X Y : Type} (f : X -> Y) (s : L * X) : L * Y := (fst s, f (snd s)).

(* what the declarators of a clause yield before exitComponent_clause, from order counter c and stamp n (P T D0:
   the clause's prefixes, type and default-dimensions objects): the symbols, the next stamp *)
Definition own_dims (d : declr) : list (list expr) :=
  match d_dims d with Some subs => [subs] | None => default_dims end.
Definition step_next (d : declr) (n : nat) : nat := match d_dims d with Some _ => S n | None => n end.

Fixpoint pre_syms (cl : clause) (P T D0 : nat) (ds : list declr) (c n : nat) : list osym :=
  match ds with
  | [] => []
  | d :: r => mkS (d_name d) [] (c_prefixes cl) (own_dims d) Private c (d_comment d) (decl_cm (d_mod d)) P
                  (match d_dims d with Some _ => n | None => D0 end) T
              :: pre_syms cl P T D0 r (S c) (step_next d n)
  end.
Fixpoint pre_next (ds : list declr) (n : nat) : nat :=
  match ds with [] => n | d :: r => pre_next r (step_next d n) end.
Fixpoint fresh (seen ns : list string) : bool :=
  match ns with [] => true | x :: r => negb (mem x seen) && fresh (seen ++ [x]) r end.

Lemma do_declr_eq cl P T D0 d seen l :
  do_declr cl P T D0 d (seen, l)
  = if mem (d_name d) seen then Err (DupSym (d_name d))
    else Ok (mkS (d_name d) [] (c_prefixes cl) (own_dims d) Private (l_count l) (d_comment d) (decl_cm (d_mod d)) P
                 (match d_dims d with Some _ => l_next l | None => D0 end) T,
             (seen ++ [d_name d], mkL (S (l_count l)) false (step_next d (l_next l)) (l_trace l))).
Proof. unfold do_declr, own_dims, step_next. destruct (mem (d_name d) seen), (d_dims d); reflexivity. Qed.

Lemma declrs_ok cl P T D0 ds : forall seen l ss seen' l',
  mapM (do_declr cl P T D0) ds (seen, l) = Ok (ss, (seen', l')) ->
  ss = pre_syms cl P T D0 ds (l_count l) (l_next l)
  /\ seen' = seen ++ map d_name ds
  /\ fresh seen (map d_name ds) = true
  /\ l' = mkL (l_count l + length ds) (match ds with [] => l_symset l | _ => false end)
              (pre_next ds (l_next l)) (l_trace l).
Proof.
  induction ds as [|d r IH]; intros seen l ss seen' l' H; cbn [mapM] in H.
  - injection H as <- <- <-. cbn [pre_syms pre_next map fresh length]. rewrite app_nil_r, Nat.add_0_r.
    destruct l; repeat split.
  - destruct (mem (d_name d) seen) eqn:Hm; rewrite do_declr_eq, Hm in H; [discriminate|].
    destruct (mapM (do_declr cl P T D0) r _) as [[bs [s2 l2]]|] eqn:Hr; [|discriminate].
    injection H as <- <- <-. apply IH in Hr. cbn [l_count l_next l_symset l_trace] in Hr.
    destruct Hr as (-> & -> & Hf & ->). cbn [pre_syms pre_next map fresh length].
    rewrite Hm, Hf, <- app_assoc, Nat.add_succ_r. repeat split. now destruct r.
Qed.

Lemma fresh_not_ok cl P T D0 ds seen l :
  fresh seen (map d_name ds) = false -> exists e, mapM (do_declr cl P T D0) ds (seen, l) = Err e.
Proof.
  intros Hf. destruct (mapM (do_declr cl P T D0) ds (seen, l)) as [[ss [s' l']]|e] eqn:H; [|eauto].
  apply declrs_ok in H. destruct H as (_ & _ & H & _). congruence.
Qed.

Lemma pre_next_mono ds : forall n, n <= pre_next ds n.
Proof.
  induction ds as [|d r IH]; intros n; cbn [pre_next]; [lia|].
  specialize (IH (step_next d n)). unfold step_next in *. destruct (d_dims d); lia.
Qed.

(* close_clause in two steps: type and clause dimensions, then the copies for all symbols but the first *)
Definition tail_copy (ss : list osym) (n : nat) : list osym * nat :=
  match ss with [] => ([], n) | s0 :: tl => let '(tl', n3) := copy_syms tl n in (s0 :: tl', n3) end.

Definition dims_step (v : variant) (cl : clause) (D0 : nat) (ss : list osym) (n : nat) : list osym * nat :=
  match c_dims cl with
  | Some subs => if v_dimsmerge v then merge_dims D0 n subs (map (set_type (c_type cl)) ss) (S n)
                 else (map (set_dims n [subs]) (map (set_type (c_type cl)) ss), S n)
  | None => (map (set_type (c_type cl)) ss, n)
  end.

Lemma close_clause_eq v cl D0 ss n :
  close_clause v cl D0 ss n = tail_copy (fst (dims_step v cl D0 ss n)) (snd (dims_step v cl D0 ss n)).
Proof. unfold close_clause. fold (dims_step v cl D0 ss n). destruct (dims_step v cl D0 ss n). reflexivity. Qed.

Lemma fst_let {A B : Type} (p : list A * B) (x : A) :
  fst (let '(a, b) := p in (x :: a, b)) = x :: fst p.
Proof. now destruct p. Qed.

Lemma copy_syms_map {X : Type} (g : osym -> X) : (forall p d t s, g (set_ids p d t s) = g s) ->
  forall ss n, map g (fst (copy_syms ss n)) = map g ss.
Proof.
  intros Hg. induction ss as [|s r IH]; intros n; cbn [copy_syms]; [reflexivity|].
  rewrite fst_let. cbn [map]. now rewrite Hg, IH.
Qed.

Lemma tail_copy_map {X : Type} (g : osym -> X) : (forall p d t s, g (set_ids p d t s) = g s) ->
  forall ss n, map g (fst (tail_copy ss n)) = map g ss.
Proof.
  intros Hg [|s0 tl] n; [reflexivity|]. unfold tail_copy. rewrite fst_let. cbn [map]. now rewrite copy_syms_map.
Qed.

Lemma merge_cons D0 Dc subs s r k :
  fst (merge_dims D0 Dc subs (s :: r) k)
  = if Nat.eqb (s_did s) D0 then set_dims Dc [subs] s :: fst (merge_dims D0 Dc subs r k)
    else set_dims k [hd [] (s_dims s) ++ subs] s :: fst (merge_dims D0 Dc subs r (S k)).
Proof. cbn [merge_dims]. destruct (Nat.eqb (s_did s) D0); rewrite fst_let; reflexivity. Qed.
Lemma merge_cons_snd D0 Dc subs s r k :
  snd (merge_dims D0 Dc subs (s :: r) k) = snd (merge_dims D0 Dc subs r (if Nat.eqb (s_did s) D0 then k else S k)).
Proof. cbn [merge_dims]. destruct (Nat.eqb (s_did s) D0); destruct (merge_dims D0 Dc subs r _); reflexivity. Qed.

Lemma spec_sym_eq v cl d dims : dims = spec_dims v cl d ->
  mkS (d_name d) (c_type cl) (c_prefixes cl) dims Private 0 (d_comment d) (decl_cm (d_mod d)) 0 0 0
  = spec_sym v Private cl d.
Proof. intros ->. unfold spec_sym. now rewrite decl_cm_spec. Qed.

(* dims_step with the stamp for merged dimensions free: merge_dims moves it along the symbols *)
Definition dims_from (v : variant) (cl : clause) (D0 m k : nat) (ss : list osym) : list osym :=
  match c_dims cl with
  | Some subs => if v_dimsmerge v then fst (merge_dims D0 m subs ss k) else map (set_dims m [subs]) ss
  | None => ss
  end.

Lemma dims_step_from v cl D0 ss n :
  fst (dims_step v cl D0 ss n) = dims_from v cl D0 n (S n) (map (set_type (c_type cl)) ss).
Proof. unfold dims_step, dims_from. destruct (c_dims cl); [destruct (v_dimsmerge v)|]; reflexivity. Qed.

(* The clause dimensions reach every declarator; `merge_dims` tells a declarator without subscripts of its own
   by the identity of its dimensions object, which is D0 for those and younger than D0 (D0 < n) for the others. *)
Lemma dims_from_spec v cl P T D0 ds : forall c n m k, D0 < n ->
  map erase_sym (dims_from v cl D0 m k (map (set_type (c_type cl)) (pre_syms cl P T D0 ds c n)))
  = map (spec_sym v Private cl) ds.
Proof.
  unfold dims_from. induction ds as [|d r IH]; intros c n m k Hn.
  - destruct (c_dims cl); [destruct (v_dimsmerge v)|]; reflexivity.
  - specialize (IH (S c) (step_next d n) m). cbn [pre_syms map].
    assert (Hn' : D0 < step_next d n) by (unfold step_next; destruct (d_dims d); lia).
    destruct (c_dims cl) as [subs|] eqn:Hc; [destruct (v_dimsmerge v) eqn:Hv|].
    + rewrite merge_cons. cbn [s_did set_type]. unfold step_next in *. destruct (d_dims d) eqn:Hd.
      * replace (Nat.eqb n D0) with false by (symmetry; apply Nat.eqb_neq; lia).
        cbn [map]. rewrite (IH (S k) Hn'). f_equal.
        apply spec_sym_eq. unfold spec_dims, own_dims. cbn. now rewrite Hc, Hd, Hv.
      * rewrite Nat.eqb_refl. cbn [map]. rewrite (IH k Hn'). f_equal.
        apply spec_sym_eq. unfold spec_dims. now rewrite Hc, Hd.
    + cbn [map]. rewrite (IH k Hn'). f_equal.
      apply spec_sym_eq. unfold spec_dims. rewrite Hc, Hv. now destruct (d_dims d).
    + cbn [map]. rewrite (IH k Hn'). f_equal.
      apply spec_sym_eq. unfold spec_dims, own_dims. rewrite Hc. now destruct (d_dims d).
Qed.

(* closing the clause leaves the order numbers alone *)
Lemma merge_dims_order D0 Dc subs ss : forall k, map s_order (fst (merge_dims D0 Dc subs ss k)) = map s_order ss.
Proof.
  induction ss as [|s r IH]; intros k; [reflexivity|]. rewrite merge_cons.
  destruct (Nat.eqb (s_did s) D0); cbn [map]; now rewrite IH.
Qed.

Lemma dims_from_order v cl D0 m k ss : map s_order (dims_from v cl D0 m k ss) = map s_order ss.
Proof.
  unfold dims_from. destruct (c_dims cl); [destruct (v_dimsmerge v)|]; [apply merge_dims_order|exact (map_map _ s_order ss)|reflexivity].
Qed.

Lemma pre_syms_order cl P T D0 ds : forall c n, map s_order (pre_syms cl P T D0 ds c n) = seq c (length ds).
Proof. induction ds as [|d r IH]; intros c n; cbn [pre_syms map length seq]; [reflexivity|]. now rewrite IH. Qed.

(* what a component clause walked from order counter c and stamp b yields: its symbols and the next stamp
   (b, b+1, b+2 are the clause's prefixes, type and default-dimensions objects) *)
Definition clause_run (v : variant) (cl : clause) (c b : nat) : list osym * nat :=
  close_clause v cl (S (S b)) (pre_syms cl b (S b) (S (S b)) (c_decls cl) c (S (S (S b))))
               (pre_next (c_decls cl) (S (S (S b)))).

Lemma clause_run_spec v cl c b :
  map erase_sym (fst (clause_run v cl c b)) = map (spec_sym v Private cl) (c_decls cl)
  /\ map s_order (fst (clause_run v cl c b)) = seq c (length (c_decls cl)).
Proof.
  unfold clause_run. rewrite close_clause_eq, !tail_copy_map, dims_step_from by reflexivity. split.
  - apply dims_from_spec. lia.
  - rewrite dims_from_order, map_map. apply pre_syms_order.
Qed.

Lemma do_clause_ok v cl seen l ss seen' l' :
  do_clause v cl (seen, l) = Ok (ss, (seen', l')) ->
  ss = fst (clause_run v cl (l_count l) (l_next l))
  /\ seen' = seen ++ map d_name (c_decls cl)
  /\ fresh seen (map d_name (c_decls cl)) = true
  /\ l' = mkL (l_count l + length (c_decls cl)) (match c_decls cl with [] => l_symset l | _ => false end)
              (snd (clause_run v cl (l_count l) (l_next l))) (l_trace l ++ map key ss).
Proof.
  unfold do_clause, clause_run. intros H.
  destruct (mapM _ (c_decls cl) _) as [[ss0 [seen0 l0]]|] eqn:Hm; [|discriminate].
  apply declrs_ok in Hm. cbn [l_count l_next l_symset l_trace] in Hm. destruct Hm as (-> & -> & Hf & ->).
  cbn [l_count l_next l_symset l_trace] in H.
  destruct (close_clause v cl _ _ _) as [ss' n']. injection H as <- <- <-. now repeat split.
Qed.

Lemma do_clause_dup v cl seen l :
  fresh seen (map d_name (c_decls cl)) = false -> exists e, do_clause v cl (seen, l) = Err e.
Proof.
  intros Hf. destruct (do_clause v cl (seen, l)) as [[ss [s' l']]|e] eqn:H; [|eauto].
  apply do_clause_ok in H. destruct H as (_ & _ & H & _). congruence.
Qed.

Lemma last_idx_acc lb X : forall i acc,
  last_idx lb X i acc = if has_label lb X then last_idx lb X i None else acc.
Proof.
  induction X as [|[lb' rs] r IH]; intros i acc; cbn [last_idx has_label existsb fst]; [reflexivity|].
  fold (has_label lb r). rewrite (IH _ (if label_eqb lb lb' then Some i else acc)), (IH _ (if label_eqb lb lb' then Some i else None)).
  destruct (has_label lb r), (label_eqb lb lb'); reflexivity.
Qed.

Lemma last_idx_ge lb X : forall i k, k < i -> opt_is (last_idx lb X i None) k = false.
Proof.
  induction X as [|[lb' rs] r IH]; intros i k Hk; cbn [last_idx]; [reflexivity|]. rewrite last_idx_acc.
  destruct (has_label lb r); [apply IH; lia|]. destruct (label_eqb lb lb'); [|reflexivity]. apply Nat.eqb_neq. lia.
Qed.

Lemma last_idx_tail lb lb' rs r i k : i < k ->
  opt_is (last_idx lb ((lb', rs) :: r) i None) k = opt_is (last_idx lb r (S i) None) k.
Proof.
  intros Hk. cbn [last_idx]. rewrite last_idx_acc, (last_idx_acc lb r (S i) None).
  destruct (has_label lb r); [reflexivity|]. destruct (label_eqb lb lb'); [|reflexivity]. apply Nat.eqb_neq. lia.
Qed.

Lemma last_idx_head lb rs r i : opt_is (last_idx lb ((lb, rs) :: r) i None) i = negb (has_label lb r).
Proof.
  cbn [last_idx]. rewrite last_idx_acc. destruct (has_label lb r); [apply last_idx_ge, le_n|].
  destruct lb; cbn; apply Nat.eqb_refl.
Qed.

Fixpoint apply_vis (vs : list vis) (X : list (label * list ores)) : list (list ores) :=
  match vs, X with
  | v1 :: vr, (_, rs) :: r => map (set_vis_res v1) rs :: apply_vis vr r
  | _, _ => []
  end.

(* A section that epub / epro does not point at keeps the visibility its results were created with; that is
   the effective one as long as they still carry the default, PRIVATE. *)
Lemma assign_at_spec v X : v_allsec v = false -> forall i epub epro,
  (forall k, i <= k -> opt_is epub k = opt_is (last_idx Pub X i None) k) ->
  (forall k, i <= k -> opt_is epro k = opt_is (last_idx Pro X i None) k) ->
  Forall (fun s => map (set_vis_res Private) (snd s) = snd s) X ->
  assign_at epub epro X i = apply_vis (eff_vis v X) X.
Proof.
  intros Hv. induction X as [|[lb rs] r IH]; intros i epub epro Hpub Hpro HX; [reflexivity|].
  inversion HX as [|? ? Hrs Hr]; subst. cbn [snd] in Hrs.
  cbn [assign_at eff_vis apply_vis]. rewrite Hv. f_equal.
  - destruct lb; [reflexivity| |].
    + rewrite Hpub, last_idx_head by apply le_n. destruct (has_label Pub r); cbn [negb]; [now rewrite Hrs|reflexivity].
    + rewrite Hpro, last_idx_head by apply le_n. destruct (has_label Pro r); cbn [negb]; [now rewrite Hrs|reflexivity].
  - apply IH; [| |exact Hr]; intros k Hk; [rewrite Hpub by lia|rewrite Hpro by lia]; now apply last_idx_tail.
Qed.

Lemma apply_vis_all v X : v_allsec v = true ->
  map (fun s => map (set_vis_res (vis_of_label (fst s))) (snd s)) X = apply_vis (eff_vis v X) X.
Proof. intros Hv. induction X as [|[lb rs] r IH]; [reflexivity|]. cbn [map eff_vis apply_vis fst snd]. now rewrite Hv, IH. Qed.

Lemma assign_vis_spec v X : Forall (fun s => map (set_vis_res Private) (snd s) = snd s) X ->
  assign_vis v X = apply_vis (eff_vis v X) X.
Proof.
  intros HX. unfold assign_vis. destruct (v_allsec v) eqn:Hv.
  - now apply apply_vis_all.
  - apply assign_at_spec; auto.
Qed.

Definition spec_res (v : variant) (e : element) : ores :=
  match e with
  | EComp cl => RSyms (map (spec_sym v Private cl) (c_decls cl))
  | EExt p m _ => RExt (mkE p Private (conv_args m))
  | _ => ROther
  end.
Definition erase_res (r : ores) : ores := match r with RSyms ss => RSyms (map erase_sym ss) | x => x end.
Definition names_el (e : element) : list string := match e with EComp cl => map d_name (c_decls cl) | _ => [] end.
Definition imports_el (e : element) : list import := match e with EImp i _ => [i] | _ => [] end.
Definition cname_el (e : element) : list string := match e with ECls _ n _ _ _ _ => [n] | _ => [] end.
Definition names_els (els : list element) := flat_map names_el els.
Definition imports_els (els : list element) := flat_map imports_el els.
Definition cnames_els (els : list element) := flat_map cname_el els.

Fixpoint fold_imp (v : variant) (is_ : list import) (d : list (string * oimp)) : result (list (string * oimp)) :=
  match is_ with
  | [] => Ok d
  | i :: r => match add_import v i d with Err e => Err e | Ok d' => fold_imp v r d' end
  end.

Lemma fold_imp_app v a : forall b d d1, fold_imp v a d = Ok d1 -> fold_imp v (a ++ b) d = fold_imp v b d1.
Proof.
  induction a as [|i r IH]; intros b d d1 H; cbn in *; [now inversion H|].
  destruct (add_import v i d); [|discriminate]. now apply IH.
Qed.

Lemma mem_app x a b : mem x (a ++ b) = mem x a || mem x b.
Proof. unfold mem. apply existsb_app. Qed.

Lemma fresh_app a : forall seen b, fresh seen (a ++ b) = fresh seen a && fresh (seen ++ a) b.
Proof.
  induction a as [|x r IH]; intros seen b; cbn [fresh app]; [now rewrite app_nil_r|].
  rewrite IH, <- app_assoc. cbn [app]. now rewrite andb_assoc.
Qed.

Record adds (v : variant) (k : cstate) (els : list element) (k' : cstate) : Prop := mkAdds {
  a_seen : k_seen k' = k_seen k ++ names_els els;
  a_fresh : fresh (k_seen k) (names_els els) = true;
  a_imports : fold_imp v (imports_els els) (k_imports k) = Ok (k_imports k');
  a_classes : k_classes k' = k_classes k ++ cnames_els els }.

Lemma adds_nil v k : adds v k [] k.
Proof. split; cbn; now rewrite ?app_nil_r. Qed.

Lemma adds_app v k a k1 b k2 : adds v k a k1 -> adds v k1 b k2 -> adds v k (a ++ b) k2.
Proof.
  intros [A1 A2 A3 A4] [B1 B2 B3 B4]. split; unfold names_els, imports_els, cnames_els in *; rewrite flat_map_app.
  - now rewrite B1, A1, app_assoc.
  - now rewrite fresh_app, A2, <- A1.
  - now rewrite (fold_imp_app _ _ _ _ _ A3).
  - now rewrite B4, A4, app_assoc.
Qed.

Definition sec_fun (v : variant) (path : list string) (sec : label * list element) (s : cstate * lst) :=
  match mapM (do_element v path) (snd sec) s with
  | Err x => Err x
  | Ok (rs, s') => Ok ((fst sec, rs), s')
  end.
Definition all_els (secs : list (label * list element)) : list element := flat_map snd secs.

Lemma do_class_eq v path ct n cm secs eqs algs k l :
  do_element v path (ECls ct n cm secs eqs algs) (k, l)
  = match mapM (sec_fun v (path ++ [n])) secs (mkK [] [] [], l) with
    | Err x => Err x
    | Ok (srs, (k', l')) =>
        Ok ((ROther, finish_class v (path ++ [n]) ct cm (map (on_snd (map fst)) srs) k' eqs algs
                     :: concat (map (fun s => concat (map snd (snd s))) srs)),
            (mkK (k_seen k) (k_imports k) (k_classes k ++ [n]), l'))
    end.
Proof. reflexivity. Qed.

Lemma do_element_shape v path e k l r cls k' l' :
  do_element v path e (k, l) = Ok ((r, cls), (k', l')) -> erase_res r = spec_res v e /\ adds v k [e] k'.
Proof.
  destruct e as [cl|p m an|i an|ct n cm secs eqs algs]; [cbn [do_element]..|rewrite do_class_eq]; intros H.
  - destruct (do_clause v cl (k_seen k, l)) as [[ss [seen' l1]]|] eqn:Hc; [|discriminate].
    injection H as <- <- <- <-. apply do_clause_ok in Hc. destruct Hc as (-> & C & D & _).
    split; [cbn; now rewrite (proj1 (clause_run_spec v cl _ _))|]. split; cbn; now rewrite ?app_nil_r.
  - injection H as <- <- <- <-. split; [reflexivity|]. split; cbn; now rewrite ?app_nil_r.
  - destruct (add_import v i (k_imports k)) as [im|] eqn:Hi; [|discriminate].
    injection H as <- <- <- <-. split; [reflexivity|]. split; cbn; now rewrite ?Hi, ?app_nil_r.
  - destruct (mapM _ secs _) as [[srs [k1 l1]]|]; [|discriminate].
    injection H as <- <- <- <-. split; [reflexivity|]. split; cbn; now rewrite ?app_nil_r.
Qed.

Lemma do_elements_shape v path els k l rs k' l' :
  mapM (do_element v path) els (k, l) = Ok (rs, (k', l')) ->
  map erase_res (map fst rs) = map (spec_res v) els /\ adds v k els k'.
Proof.
  apply (mapM_run (do_element v path)
           (fun s els rs s' => map erase_res (map fst rs) = map (spec_res v) els /\ adds v (fst s) els (fst s'))).
  - intros s. split; [reflexivity|apply adds_nil].
  - intros s xs bs s1 ys cs s2 [E1 A1] [E2 A2]. split; [now rewrite !map_app, E1, E2|eapply adds_app; eassumption].
  - apply Forall_forall. intros e _ [k0 l0] [r c] [k1 l1] H. apply do_element_shape in H.
    destruct H as [E A]. split; [cbn; now rewrite E|exact A].
Qed.

Lemma do_sections_shape v path secs k l srs k' l' :
  mapM (sec_fun v path) secs (k, l) = Ok (srs, (k', l')) ->
  map (on_snd (map erase_res)) (map (on_snd (map fst)) srs) = map (on_snd (map (spec_res v))) secs
  /\ adds v k (all_els secs) k'.
Proof.
  apply (mapM_run (sec_fun v path)
           (fun s secs srs s' =>
              map (on_snd (map erase_res)) (map (on_snd (map fst)) srs) = map (on_snd (map (spec_res v))) secs
              /\ adds v (fst s) (all_els secs) (fst s'))).
  - intros s. split; [reflexivity|apply adds_nil].
  - intros s xs bs s1 ys cs s2 [E1 A1] [E2 A2]. unfold all_els. rewrite flat_map_app.
    split; [now rewrite !map_app, E1, E2|eapply adds_app; eassumption].
  - apply Forall_forall. intros [lb els] _ [k0 l0] [lb' rs] [k1 l1] H. unfold sec_fun in H. cbn [fst snd] in H.
    destruct (mapM (do_element v path) els (k0, l0)) as [[rs0 [k2 l2]]|] eqn:He; [|discriminate].
    injection H as <- <- <- <-. apply do_elements_shape in He. destruct He as [E A].
    unfold all_els. cbn. rewrite app_nil_r. split; [unfold on_snd; cbn; now rewrite E|exact A].
Qed.

Lemma erase_set_vis vs rs : map erase_res (map (set_vis_res vs) rs) = map (set_vis_res vs) (map erase_res rs).
Proof.
  rewrite !map_map. apply map_ext. intros [ss|e|]; cbn; [|reflexivity..].
  f_equal. rewrite !map_map. apply map_ext. reflexivity.
Qed.

Lemma assign_at_erase epub epro X : forall i,
  map (map erase_res) (assign_at epub epro X i) = assign_at epub epro (map (on_snd (map erase_res)) X) i.
Proof.
  induction X as [|[lb rs] r IH]; intros i; [reflexivity|]. cbn [assign_at map on_snd fst snd]. rewrite IH. f_equal.
  destruct lb; [|destruct (opt_is epub i)|destruct (opt_is epro i)]; try reflexivity; apply erase_set_vis.
Qed.

Lemma last_idx_erase lb f X : forall i acc, last_idx lb (map (on_snd f) X) i acc = last_idx lb X i acc.
Proof. induction X as [|[lb' rs] r IH]; intros i acc; [reflexivity|]. cbn [map on_snd fst last_idx]. apply IH. Qed.

Lemma assign_vis_erase v X : map (map erase_res) (assign_vis v X) = assign_vis v (map (on_snd (map erase_res)) X).
Proof.
  unfold assign_vis. destruct (v_allsec v).
  - rewrite !map_map. apply map_ext. intros s. apply erase_set_vis.
  - rewrite !last_idx_erase. apply assign_at_erase.
Qed.

Lemma eff_vis_map {X Y : Type} v (f : X -> Y) (S : list (label * X)) : eff_vis v (map (on_snd f) S) = eff_vis v S.
Proof.
  induction S as [|[lb x] r IH]; [reflexivity|]. cbn [map eff_vis on_snd fst]. rewrite IH. clear IH. f_equal.
  assert (H : forall lb', has_label lb' (map (on_snd f) r) = has_label lb' r).
  { intros lb'. unfold has_label. induction r as [|[l0 x0] r0 IHr]; [reflexivity|]. cbn [map existsb on_snd fst]. now rewrite IHr. }
  now rewrite !H.
Qed.

Definition sec_syms (v : variant) (vs : vis) (els : list element) : list osym :=
  flat_map (fun e => match e with EComp cl => map (spec_sym v vs cl) (c_decls cl) | _ => [] end) els.
Definition sec_exts (vs : vis) (els : list element) : list oext :=
  flat_map (fun e => match e with EExt p m _ => [mkE p vs (conv_args m)] | _ => [] end) els.
Fixpoint class_syms_aux (v : variant) (vs : list vis) (secs : list (label * list element)) : list osym :=
  match vs, secs with v1 :: vr, (_, els) :: r => sec_syms v v1 els ++ class_syms_aux v vr r | _, _ => [] end.
Fixpoint class_exts_aux (vs : list vis) (secs : list (label * list element)) : list oext :=
  match vs, secs with v1 :: vr, (_, els) :: r => sec_exts v1 els ++ class_exts_aux vr r | _, _ => [] end.
(* the symbol table / extends list a class text declares: every declarator of every component clause, in
   source order, with the effective visibility of its section *)
Definition class_syms (v : variant) (secs : list (label * list element)) : list osym :=
  class_syms_aux v (eff_vis v secs) secs.
Definition class_exts (v : variant) (secs : list (label * list element)) : list oext :=
  class_exts_aux (eff_vis v secs) secs.

Lemma syms_of_erase rs : map erase_sym (syms_of rs) = syms_of (map erase_res rs).
Proof.
  unfold syms_of. induction rs as [|r rs IH]; [reflexivity|]. cbn [flat_map map]. rewrite map_app, IH.
  destruct r; reflexivity.
Qed.
Lemma exts_of_erase rs : exts_of (map erase_res rs) = exts_of rs.
Proof.
  unfold exts_of. induction rs as [|r rs IH]; [reflexivity|]. cbn [flat_map map]. rewrite IH. destruct r; reflexivity.
Qed.
Lemma syms_of_app a b : syms_of (a ++ b) = syms_of a ++ syms_of b.
Proof. apply flat_map_app. Qed.
Lemma exts_of_app a b : exts_of (a ++ b) = exts_of a ++ exts_of b.
Proof. apply flat_map_app. Qed.

Lemma syms_of_spec v v1 els : syms_of (map (set_vis_res v1) (map (spec_res v) els)) = sec_syms v v1 els.
Proof.
  unfold syms_of, sec_syms. induction els as [|e r IH]; [reflexivity|]. cbn [map flat_map]. rewrite IH. f_equal.
  destruct e; cbn; try reflexivity. rewrite map_map. apply map_ext. reflexivity.
Qed.
Lemma exts_of_spec v v1 els : exts_of (map (set_vis_res v1) (map (spec_res v) els)) = sec_exts v1 els.
Proof.
  unfold exts_of, sec_exts. induction els as [|e r IH]; [reflexivity|]. cbn [map flat_map]. rewrite IH. f_equal.
  destruct e; reflexivity.
Qed.

Lemma apply_vis_class v secs : forall vs,
  syms_of (concat (apply_vis vs (map (on_snd (map (spec_res v))) secs))) = class_syms_aux v vs secs
  /\ exts_of (concat (apply_vis vs (map (on_snd (map (spec_res v))) secs))) = class_exts_aux vs secs.
Proof.
  induction secs as [|[lb els] r IH]; intros [|v1 vr]; try (split; reflexivity).
  cbn [map apply_vis concat on_snd fst snd class_syms_aux class_exts_aux].
  rewrite syms_of_app, exts_of_app, syms_of_spec, exts_of_spec. destruct (IH vr) as [-> ->]. now split.
Qed.

(* the tables read off the declarative results: these are created PRIVATE *)
Lemma class_tables v secs :
  syms_of (concat (assign_vis v (map (on_snd (map (spec_res v))) secs))) = class_syms v secs
  /\ exts_of (concat (assign_vis v (map (on_snd (map (spec_res v))) secs))) = class_exts v secs.
Proof.
  rewrite assign_vis_spec, eff_vis_map; [apply apply_vis_class|].
  apply Forall_map, Forall_forall. intros [lb els] _. unfold on_snd. cbn [snd].
  rewrite !map_map. apply map_ext. intros [cl| | |]; cbn; try reflexivity.
  f_equal. rewrite map_map. apply map_ext. reflexivity.
Qed.

(* the class a class definition produces, up to the order numbers and object identities of its symbols *)
Theorem class_ok v path ct n cm secs eqs algs k l r cls k' l' :
  do_element v path (ECls ct n cm secs eqs algs) (k, l) = Ok ((r, cls), (k', l')) ->
  exists syms imports nested,
    cls = mkO (path ++ [n]) ct cm syms (class_exts v secs) imports (cnames_els (all_els secs))
              (sel false eqs) (sel true eqs) (sel false algs) (sel true algs) :: nested
    /\ map erase_sym syms = class_syms v secs
    /\ fold_imp v (imports_els (all_els secs)) [] = Ok imports
    /\ fresh [] (names_els (all_els secs)) = true
    /\ k' = mkK (k_seen k) (k_imports k) (k_classes k ++ [n]).
Proof.
  rewrite do_class_eq. intros H.
  destruct (mapM (sec_fun v (path ++ [n])) secs (mkK [] [] [], l)) as [[srs [k1 l1]]|] eqn:Hm; [|discriminate].
  injection H as <- <- <- <-. apply do_sections_shape in Hm. destruct Hm as [E [_ A2 A3 A4]].
  cbn [k_seen k_imports k_classes app] in A2, A3, A4.
  (* the results erase to the declarative ones (E), and erasing commutes with the visibility assignment *)
  assert (Hx : exts_of (concat (assign_vis v (map (on_snd (map fst)) srs))) = class_exts v secs)
    by (rewrite <- exts_of_erase, concat_map, assign_vis_erase, E; apply class_tables).
  rewrite finish_class_eq, Hx, A4. eexists _, _, _. split; [reflexivity|]. repeat split; try assumption.
  rewrite syms_of_erase, concat_map, assign_vis_erase, E. apply class_tables.
Qed.

Lemma mem_In x l : In x l -> mem x l = true.
Proof. intros H. apply existsb_exists. exists x. split; [assumption|apply String.eqb_refl]. Qed.

Lemma fresh_NoDup ns : forall seen,
  fresh seen ns = true -> NoDup ns /\ forall x, In x ns -> ~ In x seen.
Proof.
  induction ns as [|x r IH]; intros seen; cbn [fresh].
  - intros _; split; [constructor|intros ? []].
  - rewrite andb_true_iff, negb_true_iff. intros (Hm & Hr). apply IH in Hr. destruct Hr as (Hn & Hd).
    assert (Hx : ~ In x seen) by (intros Hi; apply mem_In in Hi; congruence). split.
    + constructor; [|assumption]. intros Hi. apply (Hd x Hi). apply in_or_app. right. now left.
    + intros y [<-|Hy]; [assumption|]. intros Hs. apply (Hd y Hy). apply in_or_app. now left.
Qed.

Lemma sec_syms_names v vs els : map s_name (sec_syms v vs els) = names_els els.
Proof.
  unfold sec_syms, names_els. induction els as [|e r IH]; [reflexivity|]. cbn [flat_map]. rewrite map_app, IH. f_equal.
  destruct e; cbn; try reflexivity. rewrite map_map. reflexivity.
Qed.

Lemma class_syms_names v secs : map s_name (class_syms v secs) = names_els (all_els secs).
Proof.
  unfold class_syms. induction secs as [|[lb els] r IH]; [reflexivity|].
  cbn [eff_vis class_syms_aux all_els flat_map snd]. unfold names_els in *. rewrite map_app, flat_map_app.
  f_equal; [apply sec_syms_names|exact IH].
Qed.

Lemma erase_name l : map s_name (map erase_sym l) = map s_name l.
Proof. rewrite map_map. apply map_ext. reflexivity. Qed.

(* the ideal reading: with the repairs (or on texts that do not reach the defects) the effective
   visibility is the section label and the dimensions are declarator ++ clause *)
Fixpoint labels_once {X : Type} (secs : list (label * X)) : bool :=
  match secs with
  | [] => true
  | (lb, _) :: r => (match lb with Unl => true | _ => negb (has_label lb r) end) && labels_once r
  end.

Lemma eff_vis_ideal {X : Type} v (secs : list (label * X)) :
  v_allsec v = true \/ labels_once secs = true -> eff_vis v secs = map (fun s => vis_of_label (fst s)) secs.
Proof.
  intros H. induction secs as [|[lb x] r IH]; [reflexivity|]. cbn [eff_vis map fst].
  destruct H as [H|H].
  - rewrite H, IH; auto.
  - cbn [labels_once] in H. apply andb_true_iff in H. destruct H as [H1 H2]. rewrite IH by auto. f_equal.
    destruct (v_allsec v); [reflexivity|]. destruct lb; [reflexivity| |]; apply negb_true_iff in H1; now rewrite H1.
Qed.

Definition ideal_dims (cl : clause) (d : declr) : list (list expr) :=
  match c_dims cl, d_dims d with
  | None, None => default_dims
  | _, _ => [match d_dims d with Some o => o | None => [] end ++ match c_dims cl with Some c => c | None => [] end]
  end.
Lemma spec_dims_ideal v cl d :
  v_dimsmerge v = true \/ c_dims cl = None \/ d_dims d = None -> spec_dims v cl d = ideal_dims cl d.
Proof.
  unfold spec_dims, ideal_dims. destruct (c_dims cl), (d_dims d); cbn; rewrite ?app_nil_r; try reflexivity.
  intros [H|[H|H]]; try discriminate. now rewrite H.
Qed.

(* strictly increasing and within [c, c'): what the order numbers and each kind of object stamp are, in creation
   order *)
Fixpoint incr_from (c : nat) (os : list nat) (c' : nat) : Prop :=
  match os with [] => c <= c' | o :: r => c <= o /\ incr_from (S o) r c' end.

Lemma incr_weaken c c1 os c' : c <= c1 -> incr_from c1 os c' -> incr_from c os c'.
Proof. destruct os as [|o r]; cbn [incr_from]; [lia|]. intros L [H1 H2]. split; [lia|exact H2]. Qed.

Lemma incr_bounds os : forall c c', incr_from c os c' -> c <= c' /\ Forall (fun o => c <= o < c') os.
Proof.
  induction os as [|o r IH]; intros c c'; cbn [incr_from]; [now split|]. intros [H1 H2].
  destruct (IH _ _ H2) as [L F]. split; [lia|]. constructor; [lia|].
  eapply Forall_impl; [|exact F]. cbn. intros; lia.
Qed.

Lemma incr_NoDup os : forall c c', incr_from c os c' -> NoDup os.
Proof.
  induction os as [|o r IH]; intros c c'; cbn [incr_from]; [constructor|]. intros [H1 H2].
  constructor; [|eapply IH; eassumption]. destruct (incr_bounds _ _ _ H2) as [_ F].
  rewrite Forall_forall in F. intros Hi. specialize (F _ Hi). lia.
Qed.

(* every copy of exitComponent_clause (636-640) takes three stamps of its own from the interval [n, n') the
   copies use up *)
Lemma copy_syms_fresh ss : forall n,
  incr_from n (map s_pid (fst (copy_syms ss n))) (snd (copy_syms ss n))
  /\ incr_from n (map s_did (fst (copy_syms ss n))) (snd (copy_syms ss n))
  /\ incr_from n (map s_tid (fst (copy_syms ss n))) (snd (copy_syms ss n)).
Proof.
  induction ss as [|s r IH]; intros n; cbn [copy_syms]; [cbn; lia|].
  destruct (IH (3 + n)) as (A & B & C). destruct (copy_syms r (3 + n)) as [r' n'].
  cbn [fst snd map set_ids s_pid s_did s_tid incr_from] in *.
  repeat split; try lia; (eapply incr_weaken; [|eassumption]; lia).
Qed.

(* the first symbol keeps the clause's objects, every later one gets fresh copies: pairwise distinct *)
Theorem tail_copy_no_sharing s0 tl n :
  s_pid s0 < n -> s_did s0 < n -> s_tid s0 < n ->
  NoDup (map s_pid (fst (tail_copy (s0 :: tl) n))) /\ NoDup (map s_did (fst (tail_copy (s0 :: tl) n)))
  /\ NoDup (map s_tid (fst (tail_copy (s0 :: tl) n))).
Proof.
  intros H1 H2 H3. unfold tail_copy. rewrite fst_let. cbn [map].
  destruct (copy_syms_fresh tl n) as (A & B & C).
  repeat split; apply (incr_NoDup _ 0 (snd (copy_syms tl n))); cbn [incr_from];
    (split; [lia|]); (eapply incr_weaken; [|eassumption]); lia.
Qed.

Lemma merge_dims_length D0 Dc subs ss : forall k, length (fst (merge_dims D0 Dc subs ss k)) = length ss.
Proof.
  induction ss as [|s r IH]; intros k; [reflexivity|]. rewrite merge_cons.
  destruct (Nat.eqb (s_did s) D0); cbn [length]; now rewrite IH.
Qed.

Lemma close_clause_tail v cl D0 ss n :
  exists ss2 n2, fst (close_clause v cl D0 ss n) = fst (tail_copy ss2 n2) /\ length ss2 = length ss.
Proof.
  rewrite close_clause_eq. eexists; eexists; split; [reflexivity|]. unfold dims_step.
  destruct (c_dims cl); [destruct (v_dimsmerge v)|]; cbn [fst]; now rewrite ?merge_dims_length, ?map_length.
Qed.

Definition dcl (n : string) := mkD n None None "".
Definition real1 (n : string) := EComp (mkC [] ["Real"] None [dcl n]).
(* model M public Real a; protected Real b; public Real c; end M; *)
Definition vis_witness : element :=
  ECls "model" "M" "" [(Unl, []); (Pub, [real1 "a"]); (Pro, [real1 "b"]); (Pub, [real1 "c"])] [] [].
(* model M Real[2] x[3]; end M; *)
Definition dims_witness : element :=
  ECls "model" "M" "" [(Unl, [EComp (mkC [] ["Real"] (Some ["2"]) [mkD "x" (Some ["3"]) None ""])])] [] [].

Definition vis_of_first (r : result (list oclass)) : list (string * vis) :=
  match r with Ok (c :: _) => map (fun s => (s_name s, s_vis s)) (o_syms c) | _ => [] end.
Definition dims_of_first (r : result (list oclass)) : list (list (list expr)) :=
  match r with Ok (c :: _) => map s_dims (o_syms c) | _ => [] end.

(* a class with prefixes, clause and declarator dimensions, a modification with a declaration value, three
   sections, a nested class, extends, import, initial and non-initial sections *)
Definition example_class : element :=
  ECls "model" "M" "doc"
    [(Unl, [EComp (mkC ["parameter"; "input"] ["Real"] (Some ["2"])
                       [mkD "a" None (Some (Modif (Some [Arg "start" (Some (Modif None (Some "1")))]) (Some "3"))) "c";
                        mkD "b" None None ""]);
            EExt ["Base"] (Some [Arg "k" (Some (Modif None (Some "2")))]) false;
            EImp (ImpQual ["Lib"; "X"]) false]);
     (Pub, [EComp (mkC [] ["Integer"] None [mkD "i" (Some ["4"]) None ""]);
            ECls "record" "R" "" [(Unl, [real1 "a"])] [] []]);
     (Pro, [real1 "p"])]
    [(false, ["(= a b)"]); (true, ["(= a 1)"]); (false, ["(= i 2)"])] [(true, ["(:= b 2)"])].

(* its walk from the initial listener state, evaluated once so that the facts about it mention a constant *)
Definition example_out : oclass * list oclass * (cstate * lst) :=
  Eval vm_compute in
    match do_element head_variant [] example_class (mkK [] [] [], init_lst) with
    | Ok ((_, own :: nested), st') => (own, nested, st')
    | _ => (mkO [] "" "" [] [] [] [] [] [] [] [], [], (mkK [] [] [], init_lst))
    end.

Lemma NoDup_eval (l : list nat) : nodup Nat.eq_dec l = l -> NoDup l.
Proof. intros <-. apply NoDup_nodup. Qed.
