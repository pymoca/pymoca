(* C18 — expanded residual = unexpanded residual under the renaming, at the matrix level. *)
From Coq Require Import String List Arith ZArith Bool Lia.
From PV Require Import Model.C18_expand Model.C18_matrix Proofs.C18_expand.
Import ListNotations.
Open Scope nat_scope.
Open Scope list_scope.

Lemma grid_length {A} (f : nat -> nat -> A) r c :
  length (flat_map (fun j => map (fun i => f i j) (seq 0 r)) (seq 0 c)) = r * c.
Proof.
  rewrite (flat_map_length _ r), seq_length; [apply Nat.mul_comm|].
  intros j. now rewrite map_length, seq_length.
Qed.

Lemma build_wf r c f : zwf (build r c f).
Proof. unfold zwf, build; cbn. apply grid_length. Qed.

Lemma build_eq m f :
  zwf m -> (forall i j, i < zr m -> j < zc m -> f i j = zget m i j) -> build (zr m) (zc m) f = m.
Proof.
  destruct m as [r c d]. unfold zwf, build. cbn [zr zc zd]. intros L H. f_equal.
  apply (nth_ext _ _ 0%Z 0%Z).
  - now rewrite grid_length.
  - intros k Hk. rewrite grid_length in Hk.
    assert (r <> 0) by (intros ->; lia).
    assert (Hq : k / r < c) by (apply Nat.div_lt_upper_bound; lia).
    assert (Hm : k mod r < r) by (apply Nat.mod_upper_bound; lia).
    assert (E : k = k mod r + (k / r) * r) by (rewrite (Nat.div_mod k r) at 1; lia).
    rewrite E at 1.
    rewrite (nth_grid (fun j i => f i j) r c 0%Z _ _ Hm Hq), (H _ _ Hm Hq).
    unfold zget. cbn [zr zd]. now rewrite <- E.
Qed.

Lemma map_nth_seq (l : list Z) : map (fun k => nth k l 0%Z) (seq 0 (length l)) = l.
Proof.
  induction l as [|x l IH]; [reflexivity|].
  cbn [length seq map nth]. f_equal. rewrite <- seq_shift, map_map. exact IH.
Qed.

Section Subst.
  Variable dims : string -> nat * nat.
  Variable names : string -> list string.
  Variable rm : string -> zmat.          (* a point of the unexpanded model: array symbols ... *)
  Variable rs : string -> Z.             (* ... and scalar symbols *)
  Variable rm0 : string -> zmat.         (* anything: the expanded expression has no array symbol *)
  Variable rs' : string -> Z.            (* the point of the expanded model *)

  (* v is an n1 x n2 array symbol whose scalars are enumerated row-major and rs' gives every scalar the
     corresponding element: rs' (name of [i; j]) = rm v [i, j] *)
  Definition renamed (v : string) : Prop :=
    let '(n1, n2) := dims v in
    zr (rm v) = n1 /\ zc (rm v) = n2 /\ zwf (rm v) /\ length (names v) = n1 * n2
    /\ forall i j, i < n1 -> j < n2 -> rs' (nth (j + i * n2) (names v) EmptyString) = zget (rm v) i j.

  Lemma subst_value v : renamed v ->
    eval rm0 rs' (MTrans (MReshape (MSyms (names v)) (snd (dims v)) (fst (dims v)))) = rm v.
  Proof.
    unfold renamed. destruct (dims v) as [n1 n2]. intros (R & C & W & L & H).
    cbn [fst snd eval zr zc zd]. rewrite <- R, <- C. apply (build_eq (rm v) _ W).
    intros i j Hi Hj. rewrite <- H by lia. unfold zget. cbn [zr zd].
    rewrite (nth_indep _ 0%Z (rs' EmptyString)) by (rewrite map_length, L; nia).
    rewrite map_nth, C. reflexivity.
  Qed.

  (* scalar symbols of the unexpanded expression keep their value *)
  Definition scalars_kept (e : mexpr) : Prop := forall s, In s (msyms e) -> rs' s = rs s.

  Theorem residual_matrix e :
    (forall v, In v (mvars e) -> renamed v) -> scalars_kept e ->
    eval rm0 rs' (expand dims names e) = eval rm rs e.
  Proof.
    (* expand is a homomorphism: the unary and binary operators go by the induction hypotheses; the leaves remain *)
    unfold scalars_kept.
    induction e; cbn [expand eval mvars msyms]; intros HV HS;
      try (rewrite IHe by auto; reflexivity);
      try (rewrite IHe1, IHe2 by (intros; first [apply HV | apply HS]; apply in_or_app; auto); reflexivity).
    - (* MVar *) apply subst_value. apply HV. now left.
    - (* MSym *) f_equal. f_equal. apply HS. now left.
    - (* MConst *) reflexivity.
    - (* MSyms *) f_equal. apply map_ext_in. intros s Hs. now apply HS.
  Qed.

  (* vec / vertsplit: the k-th scalar equation of the expanded model evaluates to the k-th entry of
     the column-major vectorisation of the unexpanded (matrix) residual *)
  Theorem residual_split e :
    (forall v, In v (mvars e) -> renamed v) -> scalars_kept e ->
    map (fun s => zget (eval rm0 rs' s) 0 0)
        (split_equation dims names (length (zd (eval rm rs e))) e)
    = zd (eval rm rs e).
  Proof.
    intros HV HS. unfold split_equation. rewrite map_map.
    rewrite <- (map_nth_seq (zd (eval rm rs e))) at 2.
    apply map_ext. intros k. cbn [eval]. rewrite (residual_matrix e HV HS). reflexivity.
  Qed.

  (* dae_residual_function: veccat of all equations, before and after *)
  Theorem residual_vector (eqs : list mexpr) :
    (forall e v, In e eqs -> In v (mvars e) -> renamed v) ->
    (forall e, In e eqs -> scalars_kept e) ->
    map (fun s => zget (eval rm0 rs' s) 0 0)
        (flat_map (fun e => split_equation dims names (length (zd (eval rm rs e))) e) eqs)
    = flat_map (fun e => zd (eval rm rs e)) eqs.
  Proof.
    induction eqs as [|e eqs IH]; intros HV HS; [reflexivity|].
    cbn [flat_map]. rewrite map_app. f_equal.
    - apply residual_split; [intros v; apply HV | apply HS]; now left.
    - apply IH; [intros e' v He'; apply HV | intros e' He'; apply HS]; now right.
  Qed.
End Subst.

Lemma assoc_in (t : list (string * Z)) s z :
  NoDup (map fst t) -> In (s, z) t -> assoc s t = Some z.
Proof.
  induction t as [|[k x] t IH]; intros ND Hin; [contradiction|].
  cbn [map fst] in ND. inversion ND as [|? ? Hk ND']; subst. cbn [assoc].
  destruct Hin as [E|Hin].
  - inversion E; subst. now rewrite String.eqb_refl.
  - destruct (String.eqb_spec s k) as [->|_].
    + exfalso. apply Hk. apply in_map_iff. exists (k, z). auto.
    + now apply IH.
Qed.

Lemma assoc_none (t : list (string * Z)) s : ~ In s (map fst t) -> assoc s t = None.
Proof.
  induction t as [|[k x] t IH]; intros H; [reflexivity|]. cbn [assoc].
  destruct (String.eqb_spec s k) as [->|_]; [exfalso; apply H; now left|].
  apply IH. intros ?; apply H; now right.
Qed.

Lemma rowmajor_nth m i j : i < zr m -> j < zc m -> nth (j + i * zc m) (rowmajor m) 0%Z = zget m i j.
Proof. intros Hi Hj. unfold rowmajor. exact (nth_grid (fun i j => zget m i j) (zc m) (zr m) 0%Z j i Hj Hi). Qed.

Lemma rowmajor_length m : length (rowmajor m) = zr m * zc m.
Proof. unfold rowmajor. rewrite (grid_length (fun j i => zget m i j) (zc m) (zr m)). lia. Qed.

Lemma in_combine_nth {A B} (l1 : list A) (l2 : list B) k d1 d2 :
  length l1 = length l2 -> k < length l1 -> In (nth k l1 d1, nth k l2 d2) (combine l1 l2).
Proof.
  intros L H. rewrite <- combine_nth by exact L. apply nth_In. now rewrite combine_length, <- L, Nat.min_id.
Qed.

Lemma table_keys names rm vars :
  (forall v, In v vars -> length (names v) = zr (rm v) * zc (rm v)) ->
  map fst (rename_table names rm vars) = flat_map names vars.
Proof.
  induction vars as [|v vars IH]; intros H; [reflexivity|].
  unfold rename_table in *. cbn [flat_map]. rewrite map_app. f_equal.
  - apply map_fst_combine. rewrite rowmajor_length. apply H. now left.
  - apply IH. intros; apply H; now right.
Qed.

(* the renaming rho' exists: no two elements share a name *)
Theorem renaming_exists dims names rm rs vars :
  NoDup (flat_map names vars) ->
  (forall v, In v vars ->
     zr (rm v) = fst (dims v) /\ zc (rm v) = snd (dims v) /\ zwf (rm v)
     /\ length (names v) = fst (dims v) * snd (dims v)) ->
  (forall v, In v vars -> renamed dims names rm (rho' names rm vars rs) v)
  /\ (forall s, ~ In s (flat_map names vars) -> rho' names rm vars rs s = rs s).
Proof.
  intros ND W.
  assert (K : map fst (rename_table names rm vars) = flat_map names vars).
  { apply table_keys. intros v Hv. destruct (W v Hv) as (-> & -> & _ & ->). reflexivity. }
  split.
  - intros v Hv. unfold renamed. destruct (W v Hv) as (R & C & Z & L).
    destruct (dims v) as [n1 n2]. cbn [fst snd] in *. repeat split; auto.
    intros i j Hi Hj. unfold rho'.
    rewrite (assoc_in _ _ (zget (rm v) i j)); [reflexivity | now rewrite K |].
    unfold rename_table. apply in_flat_map. exists v. split; [exact Hv|].
    rewrite <- (rowmajor_nth (rm v) i j), C by lia.
    apply in_combine_nth; [now rewrite rowmajor_length, R, C | rewrite L; nia].
  - intros s Hs. unfold rho'. rewrite assoc_none; [reflexivity | now rewrite K].
Qed.

Fixpoint nodupb (l : list string) : bool :=
  match l with [] => true | x :: r => negb (existsb (String.eqb x) r) && nodupb r end.

Lemma existsb_eqb_false x l : existsb (String.eqb x) l = false -> ~ In x l.
Proof.
  intros H Hin. rewrite (proj2 (existsb_exists _ _)) in H; [discriminate|].
  exists x. split; [exact Hin | apply String.eqb_refl].
Qed.

Lemma nodupb_sound l : nodupb l = true -> NoDup l.
Proof.
  induction l as [|x l IH]; cbn; intros H; [constructor|].
  apply andb_prop in H as (H1 & H2). apply negb_true_iff in H1.
  constructor; [now apply existsb_eqb_false | now apply IH].
Qed.

Lemma forallb2_forall {A B} (f : A -> list B) (t : B -> bool) l :
  forallb (fun a => forallb t (f a)) l = true -> forall a b, In a l -> In b (f a) -> t b = true.
Proof.
  intros H a b Ha Hb. rewrite forallb_forall in H. specialize (H a Ha).
  rewrite forallb_forall in H. exact (H b Hb).
Qed.

(* a concrete instance: array inside a component array, its derivative, a delay state *)
Open Scope string_scope.
Definition ex_shape (v : string) : vshape * (nat * nat) :=
  if String.eqb v "s.x" then (Nested [[2]; [2]], (2, 2))
  else if String.eqb v "der(s.x)" then (Nested [[2]; [2]], (2, 2))
  else if String.eqb v "_pymoca_delay_0" then (Flat [2; 1], (2, 1))
  else (Nested [[2]], (2, 1)).
Definition ex_dims (v : string) : nat * nat := snd (ex_shape v).
Definition ex_names (v : string) : list string :=
  match expand_var (mk_uvar v (fst (ex_shape v)) (snd (ex_shape v)) []) with
  | Some ex => map fst ex | None => [] end.
Definition ex_vars : list string := ["s.x"; "der(s.x)"; "_pymoca_delay_0"; "w"].
Definition ex_rm (v : string) : zmat :=
  let '(n1, n2) := ex_dims v in
  build n1 n2 (fun i j => (Z.of_nat (String.length v) * 100 + Z.of_nat i * 10 + Z.of_nat j + 1)%Z).
Definition ex_rs (s : string) : Z := 7%Z.
Definition ex_eqs : list mexpr :=
  [MSub (MVar "der(s.x)") (MAdd (MTrans (MVar "s.x")) (MScale (MSym "k") (MVar "s.x")));
   MSub (MVar "w") (MMtimes (MVar "s.x") (MVar "_pymoca_delay_0"));
   MSub (MSlice (MVar "s.x") 0 1 1 1) (MEmul (MSym "k") (MPick (MVec (MVar "w")) 1))].
Close Scope string_scope.
