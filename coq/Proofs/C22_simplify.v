(* C22 under the simplification options: the substitutions of a run of steps compose into one, and the
   duration test on the result is a test on the original durations under that substitution. *)
From Coq Require Import ZArith List Bool Arith Lia.
From PV Require Import Model.C22_delay Model.C22_simplify Proofs.C22_delay.
Import ListNotations.

Definition app_seq (ss : list subst) (e : expr) : expr := fold_left (fun x s => app_subst s x) ss e.
Definition rec_seq (ss : list subst) (r : drec) : drec := fold_left (fun x s => sub_rec s x) ss r.

(* first s1, then s2, as ONE substitution *)
Definition compose (s1 s2 : subst) : subst := sub_vals s2 s1 ++ s2.
Definition compose_all (ss : list subst) : subst := fold_left compose ss [].

Lemma lookup_app {A} v (l1 l2 : list (nat * A)) :
  lookup v (l1 ++ l2) = match lookup v l1 with Some x => Some x | None => lookup v l2 end.
Proof.
  induction l1 as [|[k x] l IH]; simpl; [reflexivity|]. destruct (Nat.eqb v k); [reflexivity | exact IH].
Qed.

Lemma lookup_sub_vals v s l :
  lookup v (sub_vals s l) = match lookup v l with Some x => Some (app_subst s x) | None => None end.
Proof.
  induction l as [|[k x] l IH]; simpl; [reflexivity|]. destruct (Nat.eqb v k); [reflexivity | exact IH].
Qed.

Lemma app_compose s1 s2 e : app_subst s2 (app_subst s1 e) = app_subst (compose s1 s2) e.
Proof.
  induction e; simpl; try reflexivity;
    try (rewrite IHe1, IHe2; reflexivity); try (rewrite IHe; reflexivity).
  - destruct s; simpl; try reflexivity.
    unfold compose. rewrite lookup_app, lookup_sub_vals.
    destruct (lookup v s1) as [x|]; [reflexivity|]. simpl. reflexivity.
  - rewrite IHe1, IHe2, IHe3, IHe4. reflexivity.
Qed.

Lemma app_nil e : app_subst [] e = e.
Proof.
  induction e; simpl; try reflexivity; try (rewrite IHe1, IHe2; reflexivity); try (rewrite IHe; reflexivity).
  - destruct s; reflexivity.
  - rewrite IHe1, IHe2, IHe3, IHe4. reflexivity.
Qed.

Lemma app_seq_compose_from ss : forall s0 e,
  fold_left (fun x s => app_subst s x) ss (app_subst s0 e) = app_subst (fold_left compose ss s0) e.
Proof.
  induction ss as [|s ss IH]; intros s0 e; simpl; [reflexivity|].
  rewrite app_compose. apply IH.
Qed.

Lemma app_seq_compose ss e : app_seq ss e = app_subst (compose_all ss) e.
Proof.
  unfold app_seq, compose_all. rewrite <- (app_nil e) at 1. apply app_seq_compose_from.
Qed.

Lemma rec_seq_fields ss : forall r,
  rec_seq ss r = mkD (app_seq ss (dr_expr r)) (app_seq ss (dr_dur r)) (dr_loop r).
Proof.
  unfold rec_seq, app_seq. induction ss as [|s ss IH]; intro r; simpl; [destruct r; reflexivity|].
  rewrite IH. reflexivity.
Qed.

Theorem run_args fs : forall st,
  st_args (snd (run fs st)) = map (rec_seq (fst (run fs st))) (st_args st).
Proof.
  induction fs as [|f fs IH]; intro st; cbn [run].
  - symmetry. apply map_id.
  - unfold do_step. destruct (f st) as [s st'].
    specialize (IH (with_args st' (map (sub_rec s) (st_args st)))).
    destruct (run fs _) as [ss st2]. cbn [fst snd] in *. rewrite IH. cbn [with_args st_args].
    rewrite map_map. reflexivity.
Qed.

Lemma run_args_compose fs st :
  st_args (snd (run fs st)) = map (sub_rec (compose_all (fst (run fs st)))) (st_args st).
Proof.
  rewrite run_args. apply map_ext. intro r. rewrite rec_seq_fields, !app_seq_compose. reflexivity.
Qed.

Definition bad_s (st : sst) (s : sym) : Prop :=
  s = STime \/
  (exists v, s = SVar v /\ (In v (st_states st) \/ In v (st_alg st) \/ In (v, false) (st_inputs st))) \/
  (exists v, s = SDer v /\ In v (st_states st)).

Lemma disallowed_s_bad st s : In s (disallowed_s st) <-> bad_s st s.
Proof. apply in_disallowed_list; reflexivity. Qed.

Lemma accept_s_false_iff st :
  accept_s st = false <->
  exists r s, In r (st_args st) /\ In s (deps (dr_dur r)) /\ bad_s st s.
Proof.
  unfold accept_s. destruct (st_args st) as [|r0 l].
  - exact (durs_ok_false_iff _ _ [] (disallowed_s_bad st)).
  - exact (durs_ok_false_iff _ _ _ (disallowed_s_bad st)).
Qed.

Theorem run_reject_iff fs st :
  accept_s (snd (run fs st)) = false <->
  exists r0 s, In r0 (st_args st) /\
               In s (deps (app_subst (compose_all (fst (run fs st))) (dr_dur r0))) /\ bad_s (snd (run fs st)) s.
Proof.
  rewrite accept_s_false_iff. split.
  - intros [r [s [Hr [Hs Hb]]]]. rewrite run_args_compose in Hr. apply in_map_iff in Hr.
    destruct Hr as [r0 [<- Hr0]]. exists r0, s. auto.
  - intros [r0 [s [Hr0 [Hs Hb]]]]. exists (sub_rec (compose_all (fst (run fs st))) r0), s.
    split; [rewrite run_args_compose; apply in_map; exact Hr0 | auto].
Qed.

(* a constant, a parameter or a fixed input of the simplified model: what the replace_* steps left of them *)
Definition good_s (st : sst) (s : sym) : Prop :=
  exists v, s = SVar v /\
    ((exists e, In (v, e) (st_consts st)) \/ (exists e, In (v, e) (st_params st)) \/ In (v, true) (st_inputs st)).

Lemma known_s_split st s :
  In s (known_s st) -> bad_s st s \/ good_s st s.
Proof.
  unfold known_s. intro H.
  repeat (apply in_app_or in H; destruct H as [H | H]);
    [destruct H as [<- | []] | ..]; try (apply in_map_iff in H; destruct H as [x [<- Hx]]).
  - left; left; reflexivity.
  - left; right; left. exists x. auto.
  - left; right; right. exists x. auto.
  - left; right; left. exists x. auto.
  - destruct x as [v [|]]; [right | left; right; left]; exists v; auto.
  - right. exists (fst x). split; [reflexivity|]. left. exists (snd x). destruct x; exact Hx.
  - right. exists (fst x). split; [reflexivity|]. right; left. exists (snd x). destruct x; exact Hx.
Qed.

Theorem simplify_accept_closed st :
  accept_s st = true -> closed_s st = true ->
  forall r s, In r (st_args st) -> In s (deps (dr_dur r)) -> good_s st s.
Proof.
  intros Ha Hc r s Hr Hs.
  unfold closed_s in Hc. rewrite forallb_forall in Hc. specialize (Hc r Hr).
  rewrite forallb_forall in Hc. assert (Hk : In s (known_s st)).
  { apply mem_sym_In. apply Hc. apply in_or_app. right. exact Hs. }
  destruct (known_s_split st s Hk) as [Hb | Hg]; [|exact Hg].
  apply not_false_iff_true in Ha. elim Ha. apply accept_s_false_iff. exists r, s. auto.
Qed.

Lemma outcome_s_cases st pts :
  (accept_s st = false -> outcome_s st pts = ORej) /\
  (accept_s st = true -> closed_s st = false -> outcome_s st pts = OFuncFail) /\
  (accept_s st = true -> closed_s st = true -> outcome_s st pts = OAcc (map (outputs_s st) pts)).
Proof.
  unfold outcome_s. repeat split; intros; repeat match goal with H : _ = _ |- _ => rewrite H end; reflexivity.
Qed.

Lemma app_subst_eval en i s e :
  (forall v x, lookup v s = Some x -> eval en i x = var_at en v 1) ->
  eval en i (app_subst s e) = eval en i e.
Proof.
  intro H. induction e; simpl; try reflexivity;
    try (rewrite IHe1, IHe2; reflexivity); try (rewrite IHe; reflexivity).
  - destruct s0; simpl; try reflexivity.
    destruct (lookup v s) as [x|] eqn:E; [|reflexivity]. exact (H v x E).
  - rewrite IHe1, IHe2, IHe3, IHe4. reflexivity.
Qed.

Lemma app_seq_eval en i ss : forall e,
  (forall s, In s ss -> forall v x, lookup v s = Some x -> eval en i x = var_at en v 1) ->
  eval en i (app_seq ss e) = eval en i e.
Proof.
  unfold app_seq. induction ss as [|s ss IH]; intros e H; simpl; [reflexivity|].
  rewrite IH by (intros s' Hs'; apply H; right; exact Hs').
  apply app_subst_eval. apply H. left; reflexivity.
Qed.
