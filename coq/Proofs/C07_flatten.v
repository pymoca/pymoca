(* Proofs/C07_flatten.v — lemmas about the flattening model: names, prefixes, OrderedDict merge, reference
   renaming; the loop of flatten_extends (body and tail under names, simulation and invariant principles); one
   extends level over extends-free bases. *)
From Coq Require Import List ZArith Bool PArith Lia.
From PV Require Import Lib.ClassTree Lib.Inst Model.C07_flatten.
Import ListNotations.

Lemma path_eqb_spec (a b : path) : path_eqb a b = true <-> a = b.
Proof.
  revert b; induction a as [|x a IH]; intros [|y b]; simpl; try (split; congruence).
  rewrite andb_true_iff, Pos.eqb_eq, IH. split; [intros [-> ->]; reflexivity | intros H; inversion H; auto].
Qed.

Lemma mem_path_spec (x : path) (l : list path) : mem_path x l = true <-> In x l.
Proof.
  unfold mem_path. rewrite existsb_exists. split.
  - intros [y [Hy E]]. apply path_eqb_spec in E. subst; auto.
  - intros H. exists x. split; auto. apply path_eqb_spec; auto.
Qed.

Lemma remove_first_other x y l : x <> y -> (In x (remove_first y l) <-> In x l).
Proof.
  intros Hxy. induction l as [|z l IH]; simpl; [tauto|].
  destruct (Pos.eqb_spec z y) as [->|Hzy]; simpl.
  - split; [auto | intros [E|H]; [congruence | auto]].
  - rewrite IH. tauto.
Qed.

Lemma strip_io_keeps prefix pre x :
  x <> pInput -> x <> pOutput -> (In x (strip_io prefix pre) <-> In x pre).
Proof.
  intros H1 H2. destruct prefix; simpl; [tauto|].
  rewrite remove_first_other by auto. apply remove_first_other; auto.
Qed.

Lemma remove_first_filter x l : NoDup l -> remove_first x l = filter (fun y => negb (Pos.eqb y x)) l.
Proof.
  induction 1 as [|z l Hz Hnd IH]; simpl; [reflexivity|].
  destruct (Pos.eqb_spec z x) as [->|N]; simpl.
  - clear IH. induction l as [|w l IHl]; simpl; [reflexivity|].
    destruct (Pos.eqb_spec w x) as [->|N]; simpl.
    + exfalso. apply Hz. left. reflexivity.
    + f_equal. apply IHl; [intro; apply Hz; right; assumption | inversion Hnd; assumption].
  - rewrite IH. reflexivity.
Qed.

Lemma filter_two (a b : positive) l :
  filter (fun y => negb (Pos.eqb y b)) (filter (fun y => negb (Pos.eqb y a)) l) =
  filter (fun y => negb (Pos.eqb y a || Pos.eqb y b)) l.
Proof.
  induction l as [|z l IH]; [reflexivity|]. cbn [filter].
  destruct (Pos.eqb z a); cbn [negb orb filter]; [exact IH|].
  destruct (Pos.eqb z b); cbn [negb]; [exact IH | rewrite IH; reflexivity].
Qed.

Lemma strip_drop prefix pre : NoDup pre -> strip_io prefix pre = drop_io prefix pre.
Proof.
  intros H. destruct prefix as [|a p]; [reflexivity|]. unfold strip_io, drop_io.
  rewrite (remove_first_filter pInput pre H).
  rewrite remove_first_filter by (apply NoDup_filter; assumption).
  unfold is_io. apply filter_two.
Qed.

Lemma strip_io_nested n prefix pre :
  NoDup pre -> ~ In pInput (strip_io (n :: prefix) pre) /\ ~ In pOutput (strip_io (n :: prefix) pre).
Proof.
  intros Hnd. rewrite (strip_drop (n :: prefix) pre Hnd). unfold drop_io. rewrite !filter_In.
  split; intros [_ H]; discriminate H.
Qed.

Lemma mem_id_spec x l : mem_id x l = true <-> In x l.
Proof.
  unfold mem_id. rewrite existsb_exists. split.
  - intros [y [Hy E]]. apply Pos.eqb_eq in E. subst; auto.
  - intros H. exists x. split; auto. apply Pos.eqb_refl.
Qed.

Section OD.
  Context {A : Type} (key : A -> ident).
  Notation set := (od_set key Pos.eqb).
  Notation upd := (od_update key Pos.eqb).

  Lemma keys_set x l :
    map key (set x l) = if mem_id (key x) (map key l) then map key l else map key l ++ [key x].
  Proof.
    induction l as [|y l IH]; simpl; [reflexivity|].
    rewrite (Pos.eqb_sym (key x) (key y)).
    destruct (Pos.eqb_spec (key y) (key x)) as [E|N]; simpl; [rewrite E; reflexivity|].
    rewrite IH. destruct (mem_id (key x) (map key l)); reflexivity.
  Qed.

  Lemma set_props x l :
    NoDup (map key l) ->
    NoDup (map key (set x l)) /\ (exists t, map key (set x l) = map key l ++ t) /\
    (forall n, In n (map key (set x l)) <-> In n (map key l) \/ n = key x).
  Proof.
    intros H. rewrite keys_set. destruct (mem_id (key x) (map key l)) eqn:E.
    - apply mem_id_spec in E. split; [auto|]. split; [exists []; rewrite app_nil_r; auto|].
      intros n. split; [auto | intros [?| ->]; auto].
    - assert (~ In (key x) (map key l)) as N by (rewrite <- mem_id_spec; congruence).
      split; [|split; [eexists; reflexivity|]].
      + clear E. induction (map key l) as [|k ks IH]; simpl; [constructor; [tauto|constructor]|].
        inversion H; subst. constructor.
        * rewrite in_app_iff. simpl. intros [?|[?|[]]]; [auto | subst; apply N; left; auto].
        * apply IH; auto. intro; apply N; right; auto.
      + intros n. rewrite in_app_iff. simpl. split; [intros [?|[?|[]]]; auto | intros [?| ->]; auto].
  Qed.

  Lemma update_props new : forall l,
    NoDup (map key l) ->
    NoDup (map key (upd l new)) /\ (exists t, map key (upd l new) = map key l ++ t) /\
    (forall n, In n (map key (upd l new)) <-> In n (map key l) \/ In n (map key new)).
  Proof.
    unfold od_update. induction new as [|x new IH]; intros l H; simpl.
    - split; [auto|]. split; [exists []; rewrite app_nil_r; auto | intros n; tauto].
    - destruct (set_props x l H) as (H1 & [t Ht] & H3).
      destruct (IH _ H1) as (I1 & [t' Ht'] & I3).
      split; [auto|]. split.
      + exists (t ++ t'). rewrite Ht', Ht, app_assoc. reflexivity.
      + intros n. rewrite I3, H3. split; [intros [[?|?]|?]; auto | intros [?|[?|?]]; subst; auto].
  Qed.
End OD.

Lemma rename_ref_iff cont prefix p idx :
  (In (prefix ++ p) cont -> rename cont prefix (ERef p idx) = ERef (prefix ++ p) idx) /\
  (~ In (prefix ++ p) cont -> rename cont prefix (ERef p idx) = ERef p idx).
Proof.
  cbn [rename]. split; intros H.
  - apply mem_path_spec in H. rewrite H. reflexivity.
  - destruct (mem_path (prefix ++ p) cont) eqn:E; [apply mem_path_spec in E; tauto | reflexivity].
Qed.

(* every reference of a renamed expression is either a name of the container or untouched *)
Inductive refs_ok (cont : list path) (prefix : path) : expr -> expr -> Prop :=
| RNum z : refs_ok cont prefix (ENum z) (ENum z)
| RBool b : refs_ok cont prefix (EBool b) (EBool b)
| RStr s : refs_ok cont prefix (EStr s) (EStr s)
| RHit p idx : In (prefix ++ p) cont -> refs_ok cont prefix (ERef p idx) (ERef (prefix ++ p) idx)
| RMiss p idx : ~ In (prefix ++ p) cont -> refs_ok cont prefix (ERef p idx) (ERef p idx)
| ROp o l l' : Forall2 (refs_ok cont prefix) l l' -> refs_ok cont prefix (EOp o l) (EOp o l').

Lemma rename_ok cont prefix : forall e, refs_ok cont prefix e (rename cont prefix e).
Proof.
  fix IH 1. intros [z|b|s|p idx|o l]; try constructor.
  - simpl. destruct (mem_path (prefix ++ p) cont) eqn:E.
    + apply RHit. apply mem_path_spec; auto.
    + apply RMiss. rewrite <- mem_path_spec. congruence.
  - simpl. induction l as [|x l IHl]; simpl; constructor; auto.
Qed.

Lemma bind_ext {A B} (r : res A) (k1 k2 : A -> res B) : (forall a, k1 a = k2 a) -> bind r k1 = bind r k2.
Proof. intros H. destruct r; [apply H | reflexivity]. Qed.

(* flatten_extends: the body of the loop over the extends clauses (tree.py:275-307) and what follows the loop
   (314-341) *)
Definition ext_step (root : list cdef) (f : nat) (c : cdef) (lex : path)
           (acc : res ext_class) (e : path * list marg) : res ext_class :=
  x <- acc ;;
  b <- find_base root c lex (fst e) ;;
  let (bc, blex) := b in
  if path_eqb (blex ++ [c_name bc]) (lex ++ [c_name c]) then Err OtherExc else
  if Pos.eqb (c_kind bc) kBuiltin && (1 <? length (c_exts c))%nat then Err OtherExc else
  let kind' := if Pos.eqb (c_kind bc) kBuiltin then kBuiltin else x_kind x in
  r <- flatten_extends root f bc blex (snd e) ;;
  Ok (mkExt kind'
        (od_update e_key Pos.eqb (x_classes x) (x_classes r))
        (od_update s_name Pos.eqb (x_syms x) (x_syms r))
        (x_eqs x ++ x_eqs r)
        (x_menv x ++ x_menv r)).

Definition ext_finish (c : cdef) (lex : path) (menv : list marg) (x : ext_class) : res ext_class :=
  let x1 := mkExt (x_kind x)
              (od_update e_key Pos.eqb (x_classes x) (entries_of (lex ++ [c_name c]) (c_classes c)))
              (od_update s_name Pos.eqb (x_syms x) (c_syms c))
              (x_eqs x ++ c_eqs c)
              (x_menv x ++ menv) in
  if Pos.eqb (x_kind x1) kBuiltin
  then Ok (mkExt (x_kind x1) (x_classes x1) (map (add_value_mods (x_menv x1)) (x_syms x1)) (x_eqs x1) [])
  else Ok x1.

Lemma flatten_extends_S root f c lex menv :
  flatten_extends root (S f) c lex menv =
  (x <- fold_left (ext_step root f c lex) (c_exts c) (Ok (mkExt (c_kind c) [] [] [] [])) ;;
   ext_finish c lex menv x).
Proof. reflexivity. Qed.

Lemma ext_finish_plain c lex menv x :
  x_kind x <> kBuiltin ->
  ext_finish c lex menv x =
  Ok (mkExt (x_kind x)
        (od_update e_key Pos.eqb (x_classes x) (entries_of (lex ++ [c_name c]) (c_classes c)))
        (od_update s_name Pos.eqb (x_syms x) (c_syms c))
        (x_eqs x ++ c_eqs c) (x_menv x ++ menv)).
Proof.
  intros K. unfold ext_finish. cbn [x_kind]. destruct (Pos.eqb_spec (x_kind x) kBuiltin); [contradiction | reflexivity].
Qed.

Lemma ext_step_ok root f c lex a e a' :
  ext_step root f c lex (Ok a) e = Ok a' ->
  exists bc blex rb,
    find_base root c lex (fst e) = Ok (bc, blex) /\ flatten_extends root f bc blex (snd e) = Ok rb /\
    a' = mkExt (if Pos.eqb (c_kind bc) kBuiltin then kBuiltin else x_kind a)
               (od_update e_key Pos.eqb (x_classes a) (x_classes rb))
               (od_update s_name Pos.eqb (x_syms a) (x_syms rb))
               (x_eqs a ++ x_eqs rb) (x_menv a ++ x_menv rb).
Proof.
  unfold ext_step. cbn [bind]. intros H.
  destruct (find_base root c lex (fst e)) as [[bc blex]|] eqn:FB; cbn [bind] in H; [|discriminate H].
  destruct (path_eqb _ _); [discriminate H|]. destruct (_ && _); [discriminate H|].
  destruct (flatten_extends root f bc blex (snd e)) as [rb|] eqn:EB; cbn [bind] in H; [|discriminate H].
  exists bc, blex, rb. inversion H. repeat split. exact EB.
Qed.

Lemma fold_ext_err root f c lex l err : fold_left (ext_step root f c lex) l (Err err) = Err err.
Proof. induction l as [|e l IH]; [reflexivity | exact IH]. Qed.

Lemma fold_sim {B} root f c lex (RM : ext_class -> B -> Prop) (fS : option B -> path * list marg -> option B) :
  forall l,
  (forall e a b a', In e l -> RM a b -> ext_step root f c lex (Ok a) e = Ok a' ->
                    exists b', fS (Some b) e = Some b' /\ RM a' b') ->
  forall a b a', RM a b -> fold_left (ext_step root f c lex) l (Ok a) = Ok a' ->
  exists b', fold_left fS l (Some b) = Some b' /\ RM a' b'.
Proof.
  induction l as [|e l IH]; intros Hstep a b a' R H.
  - cbn [fold_left] in *. inversion H; subst. exists b. split; [reflexivity | assumption].
  - cbn [fold_left] in *. destruct (ext_step root f c lex (Ok a) e) as [a1|err] eqn:E1.
    + destruct (Hstep e a b a1 (or_introl eq_refl) R E1) as [b1 [E2 R1]]. rewrite E2.
      apply (IH (fun e0 a0 b0 a0' Hin => Hstep e0 a0 b0 a0' (or_intror Hin)) a1 b1 a' R1 H).
    + rewrite fold_ext_err in H. discriminate H.
Qed.

Lemma fold_ext_inv root f c lex (P : ext_class -> Prop) l :
  (forall e a a', In e l -> P a -> ext_step root f c lex (Ok a) e = Ok a' -> P a') ->
  forall a a', P a -> fold_left (ext_step root f c lex) l (Ok a) = Ok a' -> P a'.
Proof.
  induction l as [|e l IH]; intros Hstep a a' Pa H; cbn [fold_left] in H; [inversion H; subst; exact Pa|].
  destruct (ext_step root f c lex (Ok a) e) as [a1|err] eqn:E; [|rewrite fold_ext_err in H; discriminate H].
  exact (IH (fun e0 x x' Hin => Hstep e0 x x' (or_intror Hin)) a1 a' (Hstep e a a1 (or_introl eq_refl) Pa E) H).
Qed.

Lemma fold_nil {A X} (g : A -> X -> A) (a : A) l :
  (forall e, In e l -> g a e = a) -> fold_left g l a = a.
Proof.
  induction l as [|e l IHl]; intros H; [reflexivity|]. cbn [fold_left]. rewrite (H e (or_introl eq_refl)).
  apply IHl. intros e0 H0. apply H. right. exact H0.
Qed.

Lemma flatten_extends_no_extends root f c lex menv :
  c_exts c = [] -> c_kind c <> kBuiltin ->
  flatten_extends root (S f) c lex menv =
  Ok (mkExt (c_kind c)
        (od_update e_key Pos.eqb [] (entries_of (lex ++ [c_name c]) (c_classes c)))
        (od_update s_name Pos.eqb [] (c_syms c)) (c_eqs c) menv).
Proof.
  intros E K. rewrite flatten_extends_S, E.
  exact (ext_finish_plain c lex menv (mkExt (c_kind c) [] [] [] []) K).
Qed.

(* one extends level: every base is extends-free *)
Definition simple_base_m (root : list cdef) (c : cdef) (lex : path) (e : path * list marg) (b : cdef * path) : Prop :=
  find_base root c lex (fst e) = Ok b /\ c_exts (fst b) = [] /\ c_kind (fst b) <> kBuiltin /\
  path_eqb (snd b ++ [c_name (fst b)]) (lex ++ [c_name c]) = false.

Definition simple_base (root : list cdef) (c : cdef) (lex : path) (e : path * list marg) (b : cdef * path) : Prop :=
  snd e = [] /\ find_base root c lex (fst e) = Ok b /\ c_exts (fst b) = [] /\ c_kind (fst b) <> kBuiltin /\
  path_eqb (snd b ++ [c_name (fst b)]) (lex ++ [c_name c]) = false.

Definition merge_base (x : ext_class) (b : cdef * path) : ext_class :=
  mkExt (x_kind x)
        (od_update e_key Pos.eqb (x_classes x)
           (od_update e_key Pos.eqb [] (entries_of (snd b ++ [c_name (fst b)]) (c_classes (fst b)))))
        (od_update s_name Pos.eqb (x_syms x) (od_update s_name Pos.eqb [] (c_syms (fst b))))
        (x_eqs x ++ c_eqs (fst b))
        (x_menv x).

Lemma ext_step_base root f c lex x e b :
  simple_base_m root c lex e b ->
  exists y, ext_step root (S f) c lex (Ok x) e = Ok y /\ x_kind y = x_kind x /\ x_menv y = x_menv x ++ snd e /\
            (snd e = [] -> y = merge_base x b).
Proof.
  destruct b as [bc blex]. intros [Hf [He [Hk Hp]]]. unfold ext_step. rewrite Hf. cbn [bind fst snd] in *. rewrite Hp.
  destruct (Pos.eqb_spec (c_kind bc) kBuiltin) as [E|_]; [contradiction|]. cbn [andb].
  rewrite (flatten_extends_no_extends root f bc blex (snd e) He Hk). cbn [bind x_classes x_syms x_eqs x_menv].
  eexists. do 3 (split; [reflexivity|]). intros ->. unfold merge_base. rewrite app_nil_r. reflexivity.
Qed.

Lemma fold_env root f c lex : forall exts bases,
  Forall2 (simple_base_m root c lex) exts bases ->
  forall x, exists x', fold_left (ext_step root (S f) c lex) exts (Ok x) = Ok x' /\
                       x_kind x' = x_kind x /\ x_menv x' = x_menv x ++ flat_map snd exts.
Proof.
  induction 1 as [|e b exts bases H F IH]; intros x.
  - exists x. rewrite app_nil_r. repeat split.
  - cbn [fold_left flat_map]. destruct (ext_step_base root f c lex x e b H) as (y & -> & K & M & _).
    destruct (IH y) as (x' & E' & K' & M'). exists x'. rewrite K', M', K, M, app_assoc. repeat split. exact E'.
Qed.

(* the modification environment after the extends clauses: the clause modifiers in clause order, then the
   incoming environment (of the enclosing component / the deriving extends clause) *)
Lemma flatten_extends_clause_env root f c lex menv bases :
  Forall2 (simple_base_m root c lex) (c_exts c) bases -> c_kind c <> kBuiltin ->
  exists x, flatten_extends root (S (S f)) c lex menv = Ok x /\
            x_menv x = flat_map snd (c_exts c) ++ menv.
Proof.
  intros F K. destruct (fold_env root f c lex _ _ F (mkExt (c_kind c) [] [] [] [])) as (x & E & KK & KM).
  rewrite flatten_extends_S, E. cbn [bind]. rewrite ext_finish_plain by (rewrite KK; exact K).
  eexists. split; [reflexivity|]. cbn [x_menv]. rewrite KM. reflexivity.
Qed.

Lemma fold_bases root f c lex : forall exts bases x,
  Forall2 (simple_base root c lex) exts bases ->
  fold_left (ext_step root (S f) c lex) exts (Ok x) = Ok (fold_left merge_base bases x).
Proof.
  intros exts bases x F. revert x. induction F as [|e b exts bases [Hm H] F IH]; intros x; [reflexivity|].
  cbn [fold_left]. destruct (ext_step_base root f c lex x e b H) as (y & -> & _ & _ & Y). rewrite (Y Hm). apply IH.
Qed.

Lemma flatten_extends_elems root f c lex menv bases :
  Forall2 (simple_base root c lex) (c_exts c) bases -> c_kind c <> kBuiltin ->
  flatten_extends root (S (S f)) c lex menv =
  let x := fold_left merge_base bases (mkExt (c_kind c) [] [] [] []) in
  Ok (mkExt (c_kind c)
        (od_update e_key Pos.eqb (x_classes x) (entries_of (lex ++ [c_name c]) (c_classes c)))
        (od_update s_name Pos.eqb (x_syms x) (c_syms c))
        (x_eqs x ++ c_eqs c) (x_menv x ++ menv)).
Proof.
  intros F K. rewrite flatten_extends_S, (fold_bases root f c lex _ _ _ F). cbn [bind].
  assert (forall bs x, x_kind (fold_left merge_base bs x) = x_kind x) as KK
    by (induction bs as [|b bs IH]; intros x; [reflexivity | cbn [fold_left]; rewrite IH; reflexivity]).
  rewrite ext_finish_plain by (rewrite KK; exact K). cbv zeta. rewrite KK. reflexivity.
Qed.

Lemma build_of_ext root late f c lex parent x0 :
  flatten_extends root f c lex [] = Ok x0 -> x_kind x0 <> kBuiltin -> x_menv x0 = [] ->
  build root late (S f) c lex parent [] [] =
  let me := mkFrame (Some (c_name c)) true (x_classes x0) None :: parent in
  r <- build_syms root late (build root late f) (extends_builtin root f) me (scope_ref me) (x_syms x0) [] [] [] ;;
  Ok (Inst (scope_ref me) (x_kind x0) (fst r) (x_eqs x0) (snd r)).
Proof.
  intros E K M. cbn [build]. rewrite E. cbn [bind].
  destruct (Pos.eqb_spec (x_kind x0) kBuiltin); [contradiction|]. rewrite M. reflexivity.
Qed.
