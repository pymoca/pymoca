(* C19 — proofs about Model/C19_cache.v: load (save m) is observationally m. *)
From Coq Require Import List Bool Arith QArith Qcanon.
From PV Require Import Model.C19_cache.
Import ListNotations.
Open Scope nat_scope.

Lemma eval_ext rho1 rho2 e :
  (forall i, In i (vars e) -> rho1 i = rho2 i) -> eval rho1 e = eval rho2 e.
Proof.
  induction e; cbn [eval vars]; intros H; try reflexivity.
  1: apply H; left; reflexivity.
  1-3: rewrite IHe by assumption; reflexivity.
  all: rewrite IHe1, IHe2; [reflexivity| |]; intros i Hi; apply H, in_or_app; auto.
Qed.

Lemma eval_closed rho1 rho2 e : vars e = [] -> eval rho1 e = eval rho2 e.
Proof. intros H; apply eval_ext; rewrite H; intros i []. Qed.

Lemma eval_subst rho s e : eval rho (subst s e) = eval (fun i => eval rho (s i)) e.
Proof.
  induction e; cbn [eval subst]; try reflexivity;
    try (rewrite IHe; reflexivity); rewrite IHe1, IHe2; reflexivity.
Qed.

Lemma eval_constv rho v : eval rho (constv v) = v.
Proof. destruct v; reflexivity. Qed.

Lemma has_sym_false e : has_sym e = false -> vars e = [].
Proof. unfold has_sym; destruct (vars e); [reflexivity | discriminate]. Qed.

Lemma has_sym_true e : has_sym e = true -> exists i, In i (vars e).
Proof. unfold has_sym; destruct (vars e) as [|i l]; [discriminate | exists i; left; reflexivity]. Qed.

Lemma existsb_false {A} (f : A -> bool) l x : existsb f l = false -> In x l -> f x = false.
Proof.
  intros H Hx. destruct (f x) eqn:E; [|reflexivity].
  rewrite <- H. symmetry. apply existsb_exists. exists x. auto.
Qed.

Lemma classify_independent a :
  classify a = MX_INDEPENDENT ->
  exists es, a = MX es /\ forall e, In e es -> vars e = [] /\ forall rho, eval rho e = eval nanrho e.
Proof.
  destruct a as [p|es]; cbn [classify]; [discriminate|].
  destruct (existsb has_sym es) eqn:E; [discriminate|]; intros _.
  exists es; split; [reflexivity|]; intros e He.
  pose proof (has_sym_false e (existsb_false has_sym es e E He)) as Hv.
  split; [exact Hv | intros rho; apply eval_closed; exact Hv].
Qed.

Lemma classify_dependent a :
  classify a = MX_DEPENDENT -> exists es e i, a = MX es /\ In e es /\ In i (vars e).
Proof.
  destruct a as [p|es]; cbn [classify]; [discriminate|].
  destruct (existsb has_sym es) eqn:E; [|discriminate]; intros _.
  apply existsb_exists in E; destruct E as (e & He & Hs).
  destruct (has_sym_true e Hs) as (i & Hi). exists es, e, i; auto.
Qed.

Lemma classify_not_mx a : classify a = NOT_MX -> exists p, a = Py p.
Proof.
  destruct a as [p|es]; cbn [classify]; [intros _; exists p; reflexivity|].
  destruct (existsb has_sym es); discriminate.
Qed.

Lemma bcast_id n l : length l = n -> bcast n l = l.
Proof. intros H. destruct l as [|e [|e' l]]; cbn [bcast]; try reflexivity. cbn in H; subst n; reflexivity. Qed.

Lemma bcast_length n es : length es = 1 \/ length es = n -> length (bcast n es) = n.
Proof.
  intros [H|H].
  - destruct es as [|e [|e' es]]; try discriminate. cbn. apply repeat_length.
  - rewrite bcast_id by exact H. exact H.
Qed.

Lemma bcast_In n es e : In e (bcast n es) -> In e es.
Proof.
  destruct es as [|e0 [|e1 es]]; cbn [bcast]; try exact (fun H => H).
  intros H. apply repeat_spec in H. left. symmetry. exact H.
Qed.

Lemma map_nth_seq {A} (l : list A) (d : A) : map (fun k => nth k l d) (seq 0 (length l)) = l.
Proof.
  induction l as [|x l IH]; [reflexivity|].
  cbn [length seq map nth]. f_equal. rewrite <- seq_shift, map_map. exact IH.
Qed.

Lemma nth_map_seq {A} (g : nat -> A) row n k d : k < n -> nth k (map g (seq row n)) d = g (row + k).
Proof.
  intros H. rewrite nth_indep with (d' := g 0) by (rewrite map_length, seq_length; assumption).
  rewrite map_nth, seq_nth by assumption. reflexivity.
Qed.

(* a column read back from the metadata function, cell by cell, against the attribute it was written from *)
Lemma column_equiv n es (g : nat -> expr) row rho :
  length es = 1 \/ length es = n ->
  (forall k, k < n -> eval rho (g (row + k)) = eval rho (nth k (bcast n es) CNaN)) ->
  map (eval rho) (bcast n (map g (seq row n))) = map (eval rho) (bcast n es).
Proof.
  intros Hes Hg. rewrite bcast_id by (rewrite map_length, seq_length; reflexivity).
  apply nth_ext with (d := eval rho CNaN) (d' := eval rho CNaN).
  - rewrite !map_length, seq_length, bcast_length by exact Hes. reflexivity.
  - intros k Hk. rewrite !map_length, seq_length in Hk.
    rewrite !map_nth, nth_map_seq by exact Hk. exact (Hg k Hk).
Qed.

Definition attr_equiv (n : nat) (a' a : attr) : Prop :=
  match a', a with
  | Py p', Py p => p' = p
  | MX es', MX es => forall rho, map (eval rho) (bcast n es') = map (eval rho) (bcast n es)
  | _, _ => False
  end.

Definition var_static (v : var) := (vname v, vshape v, vptype v, valiases v).

Definition var_equiv (v' v : var) : Prop :=
  var_static v' = var_static v /\ Forall2 (attr_equiv (numel (vshape v))) (vattrs v') (vattrs v).

Definition delay_equiv (a b : expr * expr) : Prop :=
  forall rho, eval rho (fst a) = eval rho (fst b) /\ eval rho (snd a) = eval rho (snd b).

Definition wf_attr (n : nat) (a : attr) : Prop :=
  match a with Py _ => True | MX es => length es = 1 \/ length es = n end.
Definition wf_var (v : var) : Prop := Forall (wf_attr (numel (vshape v))) (vattrs v).
Definition py_only (v : var) : Prop := Forall (fun a => is_py a = true) (vattrs v).
Definition wf (m : model) : Prop :=
  Forall (Forall wf_var) (m_meta m) /\ Forall py_only (m_der m).

Lemma load_attr_spec f c row n j a :
  wf_attr n a ->
  (forall rho k, k < n -> call_meta f rho c (row + k) j = eval rho (cell_of n k a)) ->
  attr_equiv n (load_attr f c row n j (classify a) (Py (match a with Py p => p | MX _ => py_none end))) a.
Proof.
  intros Ha H. unfold load_attr. destruct (classify a) eqn:E.
  - destruct (classify_not_mx a E) as (p & ->). reflexivity.
  - destruct (classify_dependent a E) as (es & _ & _ & -> & _). intros rho.
    apply column_equiv; [exact Ha|]. intros k Hk. exact (H rho k Hk).
  - destruct (classify_independent a E) as (es & -> & Hes). intros rho.
    apply column_equiv; [exact Ha|]. intros k Hk. rewrite eval_constv, H by exact Hk.
    (* the cell holds no symbol: the NaN call returns its value *)
    apply eval_closed, Hes, (bcast_In n), nth_In. rewrite bcast_length by exact Ha. exact Hk.
Qed.

Lemma load_attrs_spec f c row n attrs :
  Forall (wf_attr n) attrs -> forall j0,
  (forall rho k j, k < n ->
     call_meta f rho c (row + k) (j0 + j) = eval rho (nth j (map (cell_of n k) attrs) CNaN)) ->
  Forall2 (attr_equiv n) (load_attrs f c row n j0 (map classify attrs)
                      (map Py (map (fun a => match a with Py p => p | MX _ => py_none end) attrs))) attrs.
Proof.
  induction 1 as [|a attrs Ha _ IH]; intros j0 H; [constructor|].
  cbn [map load_attrs]. constructor.
  - apply load_attr_spec; [exact Ha|]. intros rho k Hk. rewrite <- (Nat.add_0_r j0). exact (H rho k 0 Hk).
  - apply IH. intros rho k j Hk. rewrite Nat.add_succ_comm. exact (H rho k (S j) Hk).
Qed.

Lemma nth_rows_of v k : k < numel (vshape v) ->
  nth k (rows_of v) [] = map (cell_of (numel (vshape v)) k) (vattrs v).
Proof. intros H. unfold rows_of. rewrite nth_map_seq by assumption. reflexivity. Qed.

Lemma rows_of_length v : length (rows_of v) = numel (vshape v).
Proof. unfold rows_of. rewrite map_length, seq_length. reflexivity. Qed.

Lemma load_vars_spec f c vs :
  Forall wf_var vs -> forall row,
  (forall rho r j, call_meta f rho c (row + r) j = eval rho (nth j (nth r (meta_matrix vs) []) CNaN)) ->
  Forall2 var_equiv
    (load_vars f c row (map to_dict vs) (map (fun v => map classify (vattrs v)) vs)) vs.
Proof.
  induction 1 as [|v vs Hv _ IH]; intros row H; [constructor|].
  cbn [map load_vars]. constructor.
  - split; [reflexivity|]. cbn [vshape vattrs from_dict to_dict d_shape d_attrs].
    apply (load_attrs_spec f c row _ _ Hv 0).
    intros rho k j Hk. cbn [Nat.add]. rewrite H.
    unfold meta_matrix. cbn [flat_map].
    rewrite app_nth1 by (rewrite rows_of_length; assumption).
    rewrite nth_rows_of by assumption. reflexivity.
  - cbn [to_dict d_shape]. apply IH.
    intros rho r j. rewrite <- Nat.add_assoc, H.
    unfold meta_matrix at 1. cbn [flat_map].
    rewrite app_nth2 by (rewrite rows_of_length; apply Nat.le_add_r).
    rewrite rows_of_length, Nat.add_comm, Nat.add_sub. reflexivity.
Qed.

Lemma load_cats_spec f cats :
  Forall (Forall wf_var) cats -> forall c0,
  (forall rho i r j, call_meta f rho (c0 + i) r j =
                     eval rho (nth j (nth r (meta_matrix (nth i cats [])) []) CNaN)) ->
  Forall2 (Forall2 var_equiv)
    (load_cats f c0 (map (map to_dict) cats) (map (map (fun v => map classify (vattrs v))) cats)) cats.
Proof.
  induction 1 as [|vs cats Hv _ IH]; intros c0 H; [constructor|].
  cbn [map load_cats]. constructor.
  - apply load_vars_spec; [exact Hv|]. intros rho r j. rewrite <- (Nat.add_0_r c0). apply H.
  - apply IH. intros rho i r j. rewrite Nat.add_succ_comm. apply H.
Qed.

Lemma from_to_dict v : py_only v -> from_dict (to_dict v) = v.
Proof.
  destruct v as [nm sh pt al attrs]. unfold py_only, from_dict, to_dict; cbn. intros H. f_equal.
  induction attrs as [|a attrs IH]; [reflexivity|]. inversion H as [|? ? Ha H']; subst.
  cbn [map]. f_equal; [|apply IH; assumption]. destruct a; [reflexivity | discriminate].
Qed.

Lemma memb_In i l : In i l -> memb i l = true.
Proof. intros H. apply existsb_exists. exists i. split; [exact H | apply Nat.eqb_refl]. Qed.

Lemma keep_agrees rho l i : In i l -> eval rho (keep l i) = rho i.
Proof. intros H. unfold keep. rewrite (memb_In i l H). reflexivity. Qed.

Lemma load_delays_spec union raw orig :
  Forall2 delay_equiv raw orig -> forall alen,
  (forall d, In d orig -> incl (vars (snd d)) union) ->
  Forall2 delay_equiv (load_delays union alen raw (map dur_deps orig)) orig.
Proof.
  induction 1 as [|[e d] [e0 d0] raw orig Hhd _ IH]; intros alen Hu; [constructor|].
  cbn [map load_delays].
  assert (Hd : forall rho, eval rho d = eval rho d0) by (intros rho; apply Hhd).
  assert (Hin0 : incl (vars d0) union) by (apply (Hu (e0, d0)); left; reflexivity).
  (* whichever duration d' is rebuilt, it is enough that it evaluates like d0 *)
  assert (Step : forall d' alen', (forall rho, eval rho d' = eval rho d0) ->
            Forall2 delay_equiv ((e, d') :: load_delays union alen' raw (map dur_deps orig)) ((e0, d0) :: orig)).
  { intros d' alen' Hd'. constructor; [intros rho; split; [apply Hhd | apply Hd']|].
    apply IH. intros; apply Hu; right; assumption. }
  change (dur_deps (e0, d0)) with (nodup Nat.eq_dec (vars d0)).
  destruct (nodup Nat.eq_dec (vars d0)) as [|i0 dp] eqn:E; [|destruct (length (i0 :: dp) <? alen)];
    apply Step; intros rho.
  - (* no symbol occurs: the NaN call gives the value *)
    rewrite eval_constv, Hd. apply eval_ext. intros i Hi.
    apply (nodup_In Nat.eq_dec) in Hi. rewrite E in Hi. destruct Hi.
  - (* both substitutions keep every symbol that occurs *)
    rewrite !eval_subst, Hd. apply eval_ext. intros i Hi.
    rewrite keep_agrees by (apply Hin0; exact Hi).
    apply keep_agrees. rewrite <- E. apply nodup_In. exact Hi.
  - rewrite eval_subst, Hd. apply eval_ext. intros i Hi. apply keep_agrees, Hin0, Hi.
Qed.

Section Roundtrip.
  (* serialisation of CasADi Functions (pickle, or CodeGenerator + C compiler + ca.external):
     trusted to produce a function that evaluates like the original *)
  Variable pkm : mfun -> mfun.
  Variable pkd : list (expr * expr) -> list (expr * expr).
  Hypothesis pkm_ok : forall f rho c r j, call_meta (pkm f) rho c r j = call_meta f rho c r j.
  Hypothesis pkd_ok : forall f, Forall2 delay_equiv (pkd f) f.

  Definition obs_equiv (l m : model) : Prop :=
    Forall2 (Forall2 var_equiv) (m_meta l) (m_meta m) /\
    m_der l = m_der m /\
    m_outputs l = m_outputs m /\ m_delay_states l = m_delay_states m /\
    m_strings l = m_strings m /\ m_alias l = m_alias m /\
    Forall2 delay_equiv (m_delays l) (m_delays m).

  Theorem delay_arguments m : Forall2 delay_equiv (m_delays (load pkm pkd (save m))) (m_delays m).
  Proof.
    unfold load, save; cbn.
    apply load_delays_spec; [apply pkd_ok|].
    (* the union of the stored dependency lists covers every duration's symbols *)
    intros d Hd i Hi. apply nodup_In, in_concat. exists (dur_deps d).
    split; [apply in_map, Hd | apply nodup_In, Hi].
  Qed.

  Theorem roundtrip m : wf m -> obs_equiv (load pkm pkd (save m)) m.
  Proof.
    intros [Hmeta Hder]. split; [|split; [|repeat split; apply delay_arguments]]; unfold load, save; cbn.
    - apply load_cats_spec; [assumption|]. intros rho i r j. cbn [Nat.add].
      rewrite pkm_ok. unfold call_meta, cellexpr, meta_fun.
      rewrite <- (map_nth meta_matrix). reflexivity.
    - rewrite map_map. rewrite <- (map_id (m_der m)) at 2. apply map_ext_in.
      intros v Hv. apply from_to_dict. rewrite Forall_forall in Hder. apply Hder; assumption.
  Qed.
End Roundtrip.

Definition qz (n : Z) (d : positive) : Qc := Q2Qc (Qmake n d).

(* parameters p1, p2, pa[2] (flattened: Sym 0..3); state x(min = 2*p1, nominal = 6);
   alg_states v[2](each min = -p2, max = pa), k(min = pa[2]); three delays with different dependencies *)
Definition ex_model : model :=
  Model
    [ [ Var 1 (1, 1) 1 0 [Py 1; MX [Mul (Const (qz 2 1)) (Sym 0)]; Py 2; Py 3; Py 4; MX [Mul (Const (qz 2 1)) (Const (qz 3 1))]] ];
      [ Var 2 (2, 1) 1 0 [Py 1; MX [Neg (Sym 1)]; MX [Sym 2; Sym 3]; Py 3; Py 4; Py 5];
        Var 3 (1, 1) 2 0 [Py 1; MX [Sym 3]; Py 2; Py 3; Py 4; Py 5] ];
      [];
      [ Var 4 (1, 1) 1 0 [Py 6; Py 7; Py 2; Py 3; Py 4; Py 5]; Var 5 (1, 1) 1 0 [Py 1; Py 7; Py 2; Py 3; Py 4; Py 5];
        Var 6 (2, 1) 1 0 [Py 8; Py 7; Py 2; Py 3; Py 4; Py 5] ];
      [] ]
    [ Var 7 (1, 1) 1 0 [Py 1; Py 7; Py 2; Py 3; Py 4; Py 5] ]
    1 2 3 4
    [ (Sym 1, Mul (Const (qz 3 1)) (Sym 5)); (Sym 1, Add (Sym 6) (Const (qz 1 1))); (Sym 1, Const (qz 5 2)) ].

Lemma ex_wf : wf ex_model.
Proof.
  split; repeat (apply Forall_cons || apply Forall_nil);
    first [exact I | reflexivity | left; reflexivity | right; reflexivity].
Qed.

Definition ex_rho : nat -> V := fun i => Some (qz (Z.of_nat i + 1) 2).
