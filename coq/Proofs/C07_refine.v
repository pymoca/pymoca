(* Proofs/C07_refine.v — refinement: the model of pymoca's flatten computes the specification Lib/Inst.v `inst`
   on libraries without modifications.  Section Loop holds the simulation (flatten_refines); what a kind of
   library has to supply is `class_step`, the behaviour of build on one class: here for plain libraries (no
   extends), in Proofs/C07_refine_pkg.v for extends in package libraries. *)
From Coq Require Import List ZArith Bool PArith Lia.
From PV Require Import Lib.ClassTree Lib.Inst Model.C07_flatten Proofs.C07_flatten.
Import ListNotations.

Section ODgen.
  Context {A K : Type} (key : A -> K) (eqb : K -> K -> bool).
  Hypothesis eqb_spec : forall a b, eqb a b = true <-> a = b.

  Lemma od_set_fresh x l : ~ In (key x) (map key l) -> od_set key eqb x l = l ++ [x].
  Proof.
    induction l as [|y l IH]; simpl; intros H; [reflexivity|].
    destruct (eqb (key y) (key x)) eqn:E.
    - apply eqb_spec in E. exfalso. apply H. left. exact E.
    - rewrite IH; [reflexivity|]. intro; apply H; right; assumption.
  Qed.

  Lemma od_update_fresh new : forall l,
    NoDup (map key l ++ map key new) -> od_update key eqb l new = l ++ new.
  Proof.
    unfold od_update. induction new as [|x new IH]; intros l H; simpl.
    - rewrite app_nil_r. reflexivity.
    - assert (~ In (key x) (map key l)) as N.
      { intro Hin. simpl in H. apply NoDup_remove_2 in H. apply H. apply in_or_app. left. exact Hin. }
      rewrite (od_set_fresh x l N). rewrite IH.
      + rewrite <- app_assoc. reflexivity.
      + rewrite map_app. simpl. rewrite <- app_assoc. simpl. exact H.
  Qed.

  Lemma od_set_Forall (P : A -> Prop) x l : P x -> Forall P l -> Forall P (od_set key eqb x l).
  Proof.
    intros Hx. induction 1 as [|y l Hy Hl IH]; simpl; [constructor; auto|].
    destruct (eqb (key y) (key x)); constructor; auto.
  Qed.

  Lemma od_update_Forall (P : A -> Prop) new : forall l,
    Forall P l -> Forall P new -> Forall P (od_update key eqb l new).
  Proof.
    unfold od_update. induction new as [|x new IH]; intros l Hl Hn; simpl; [assumption|].
    inversion Hn; subst. apply IH; [apply od_set_Forall; assumption | assumption].
  Qed.

  Lemma od_get_In k l x : od_get key eqb k l = Some x -> In x l.
  Proof.
    induction l as [|y l IH]; simpl; [discriminate|].
    destruct (eqb (key y) k); [intros H; inversion H; left; reflexivity | intros H; right; auto].
  Qed.
End ODgen.

Section ODmap.
  Context {A B K : Type} (ka : A -> K) (kb : B -> K) (eqb : K -> K -> bool) (g : A -> B).
  Hypothesis kg : forall a, kb (g a) = ka a.

  Lemma od_set_map x l : map g (od_set ka eqb x l) = od_set kb eqb (g x) (map g l).
  Proof.
    induction l as [|y l IH]; simpl; [reflexivity|].
    rewrite !kg. destruct (eqb (ka y) (ka x)); simpl; [reflexivity | rewrite IH; reflexivity].
  Qed.

  Lemma od_update_map new : forall l,
    map g (od_update ka eqb l new) = od_update kb eqb (map g l) (map g new).
  Proof.
    unfold od_update. induction new as [|x new IH]; intros l; simpl; [reflexivity|].
    rewrite IH, od_set_map. reflexivity.
  Qed.
End ODmap.

Definition plain_sym (s : sym) : Prop := s_mods s = [] /\ NoDup (s_prefixes s).

(* a type alias of a built-in without modifications in the type definition: type T = Real; *)
Inductive alias : cdef -> Prop :=
| Alias n t : mem_id t BUILTIN = true -> n <> t -> alias (CDef n kType [] [([t], [])] [] []).

(* duplicate-free names: OrderedDict.update of the empty dictionary then returns the symbols as they are *)
Inductive plain : cdef -> Prop :=
| Plain n k cs ss es :
    k <> kBuiltin -> k <> kType -> Forall (fun c => plain c \/ alias c) cs -> Forall plain_sym ss ->
    NoDup (map s_name ss) ->
    plain (CDef n k cs [] ss es).

Definition pclass (c : cdef) : Prop := plain c \/ alias c.

Definition pframe (fr : frame) : Prop := Forall (fun e => pclass (e_def e)) (f_entries fr).

Lemma pclass_classes c : pclass c -> Forall pclass (c_classes c).
Proof. intros [H|H]; inversion H; simpl; [assumption | constructor]. Qed.

Lemma pclass_entries lex cs : Forall pclass cs -> Forall (fun e => pclass (e_def e)) (entries_of lex cs).
Proof. unfold entries_of. intros H. apply Forall_map. simpl. exact H. Qed.

Lemma descend_pclass : forall rest c lex, pclass c ->
  Forall pframe (descend_frames c lex rest) /\
  forall c' lex', descend c lex rest = Some (c', lex') -> pclass c'.
Proof.
  induction rest as [|n rest IH]; intros c lex Hc; simpl.
  - split; [constructor | intros c' lex' H; inversion H; subst; assumption].
  - destruct (od_get c_name Pos.eqb n (c_classes c)) as [c1|] eqn:E; [|split; [constructor | discriminate]].
    destruct (IH c1 (lex ++ [c_name c]) (proj1 (Forall_forall _ _) (pclass_classes c Hc) c1 (od_get_In _ _ _ _ _ E)))
      as [IF ID].
    split; [|exact ID]. apply Forall_app. split; [exact IF|].
    constructor; [exact (pclass_entries _ _ (pclass_classes c Hc)) | constructor].
Qed.

Lemma lookup_pclass : forall S ref c lex S' b,
  Forall pframe S -> lookup S ref = Some (c, lex, S', b) -> pclass c /\ Forall pframe S'.
Proof.
  induction S as [|fr S IH]; intros ref c lex S' b HS H; destruct ref as [|n rest]; simpl in H; try discriminate.
  inversion HS as [|? ? Hfr HS']; subst.
  destruct (od_get e_key Pos.eqb n (f_entries fr)) as [e|] eqn:E.
  - assert (pclass (e_def e)) as He
      by (apply (proj1 (Forall_forall _ _) Hfr e (od_get_In _ _ _ _ _ E))).
    destruct (descend (e_def e) (e_lex e) rest) as [[c1 lex1]|] eqn:D.
    + inversion H; subst. destruct (descend_pclass rest (e_def e) (e_lex e) He) as [DF DP].
      split; [exact (DP _ _ D) | apply Forall_app; split; assumption].
    + eapply IH; eauto.
  - eapply IH; eauto.
Qed.

(* scopes up to the instance flag *)
Definition fsim (a b : frame) : Prop := f_owner a = f_owner b /\ f_entries a = f_entries b.
Definition sim (S1 S2 : scope) : Prop := Forall2 fsim S1 S2.

Lemma sim_refl S : sim S S.
Proof. induction S; constructor; [split; reflexivity | assumption]. Qed.

Lemma lookup_sim S1 S2 ref c lex S1' b :
  sim S1 S2 -> lookup S1 ref = Some (c, lex, S1', b) ->
  exists S2' b2, lookup S2 ref = Some (c, lex, S2', b2) /\ sim S1' S2'.
Proof.
  intros H. induction H as [|f1 f2 S1 S2 [Ho He] HS IH]; destruct ref as [|n rest]; simpl; try discriminate.
  rewrite <- He.
  destruct (od_get e_key Pos.eqb n (f_entries f1)) as [e|]; [|exact IH].
  destruct (descend (e_def e) (e_lex e) rest) as [[c1 lex1]|]; [|exact IH].
  intros E. inversion E; subst. eexists _, _. split; [reflexivity|].
  apply Forall2_app; [apply sim_refl | constructor; [split; assumption | assumption]].
Qed.

Lemma scope_ref_sim S1 S2 : sim S1 S2 -> scope_ref S1 = scope_ref S2.
Proof. induction 1 as [|f1 f2 S1 S2 [Ho He] HS IH]; simpl; [reflexivity|]. rewrite Ho, IH. reflexivity. Qed.

Lemma resolve_rename leaves env : forall e, resolve leaves env e = rename leaves env e.
Proof.
  (* the two definitions are the same fixpoint *)
  intros e. reflexivity.
Qed.

Lemma resolve_eqn_rename leaves env q : resolve_eqn leaves env q = rename_eqn leaves env q.
Proof. unfold resolve_eqn, rename_eqn. rewrite !resolve_rename. reflexivity. Qed.

Definition clean (s : fsym) : Prop := f_attrs s = [] /\ f_cmods s = [].
Definition var_of (s : fsym) : flatvar := mkVar (f_name s) (f_type s) (f_prefixes s) (f_dims s) [].

Lemma fs_finish_clean myref prefix eqs flat feqs :
  Forall clean flat ->
  fs_finish myref prefix eqs (flat, feqs) =
  Ok (flat, feqs ++ map (rename_eqn (map f_name flat) prefix) eqs).
Proof.
  intros H. unfold fs_finish.
  assert (map_res (modify_symbol myref) flat = Ok flat /\ forall cont, map (rename_fsym cont prefix) flat = flat)
    as [-> E].
  { induction H as [|[n t p d a c] l [A C] _ [IH1 IH2]]; [split; reflexivity|].
    cbn [f_attrs f_cmods] in A, C; subst a c. cbn [map_res map]. rewrite IH1. split; [reflexivity|].
    intros cont. rewrite IH2. reflexivity. }
  cbn [bind]. rewrite E. reflexivity.
Qed.

Lemma var_of_update flat new :
  map var_of (f_update flat new) = v_update (map var_of flat) (map var_of new).
Proof. unfold f_update, v_update. apply od_update_map. reflexivity. Qed.

Lemma path_eqb_spec' : forall a b : path, path_eqb a b = true <-> a = b.
Proof. exact path_eqb_spec. Qed.

Lemma conventions_clean flat :
  Forall clean flat ->
  map drop_value flat = flat /\ value_eqs flat = [] /\
  map conv_var (map var_of flat) = map var_of flat /\ conv_eqs (map var_of flat) = flow_eqs flat.
Proof.
  induction 1 as [|s l [A C] Hl (D & V & CV & CE)]; [repeat split|].
  destruct s as [n t p d a c]; cbn [f_attrs f_cmods] in A, C; subst a c.
  unfold value_eqs, conv_eqs, flow_eqs in *. cbn [map flat_map]. repeat split.
  - rewrite D. unfold drop_value. destruct (is_state_like _); reflexivity.
  - exact V.
  - rewrite CV. unfold conv_var. destruct (is_variable _); reflexivity.
  - rewrite <- CE, <- app_assoc. reflexivity.
Qed.

Lemma collapses_plain r k ss es m : k <> kBuiltin -> k <> kType -> collapses (Inst r k ss es m) = None.
Proof.
  intros H1 H2. unfold collapses. destruct (value_sym ss); [|reflexivity].
  rewrite (proj2 (Pos.eqb_neq _ _) H1), (proj2 (Pos.eqb_neq _ _) H2). reflexivity.
Qed.

Lemma path_eqb_single p t lex n : n <> t -> path_eqb (p ++ [t]) (lex ++ [n]) = false.
Proof.
  intros N. destruct (path_eqb _ _) eqn:E; [|reflexivity].
  apply path_eqb_spec, app_inj_tail in E. destruct E; congruence.
Qed.

Lemma flatten_extends_alias root f n t lex menv :
  mem_id t BUILTIN = true -> n <> t ->
  flatten_extends root (S f) (CDef n kType [] [([t], [])] [] []) lex menv =
  match f with
  | O => Err OutOfFuel
  | S _ => Ok (mkExt kBuiltin [] [mkSym iValueSym [t] [] [] menv] [] [])
  end.
Proof.
  intros Ht Hn. rewrite flatten_extends_S. cbn [c_exts fold_left]. unfold ext_step, find_base.
  cbn [bind fst head_id]. rewrite Ht. cbn [bind builtin_class c_name c_kind].
  rewrite (path_eqb_single [] t lex n Hn). destruct f; reflexivity.
Qed.

Lemma build_alias root f c lex parent i :
  alias c -> build root false f c lex parent [] [] = Ok i ->
  exists r m t, i = Inst r kBuiltin [ISym iValueSym [] [] (TyElem [t]) []] [] m /\
                c = CDef (c_name c) kType [] [([t], [])] [] [] /\ mem_id t BUILTIN = true.
Proof.
  intros [n t Ht Hn] B. destruct f as [|[|f]]; try discriminate B.
  cbn [build] in B. rewrite (flatten_extends_alias root f n t lex [] Ht Hn) in B.
  destruct f; [discriminate B|].
  cbn -[mem_id] in B. rewrite Ht in B. inversion B.
  eexists _, _, t. repeat split. exact Ht.
Qed.

Lemma elem_type_builtin f S tref :
  mem_id (head_id tref) BUILTIN = true -> elem_type f S tref = Some (Some (tref, [])).
Proof. intros H. destruct f; cbn [elem_type]; rewrite H; reflexivity. Qed.

Lemma elem_type_struct f S tref tc tlex tS b :
  mem_id (head_id tref) BUILTIN = false -> lookup S tref = Some (tc, tlex, tS, b) ->
  c_kind tc <> kType -> elem_type (Datatypes.S f) S tref = Some None.
Proof.
  intros H L K. cbn [elem_type]. rewrite H, L.
  destruct (Pos.eqb_spec (c_kind tc) kType); [contradiction | reflexivity].
Qed.

Lemma elem_type_alias f S tref n t tlex tS b :
  mem_id (head_id tref) BUILTIN = false -> mem_id t BUILTIN = true ->
  lookup S tref = Some (CDef n kType [] [([t], [])] [] [], tlex, tS, b) ->
  elem_type (Datatypes.S f) S tref = Some (Some ([t], [])).
Proof.
  intros H Ht L. cbn [elem_type]. rewrite H, L. cbn [c_kind c_exts].
  change (Pos.eqb kType kType) with true. cbv iota.
  rewrite (elem_type_builtin f _ [t] Ht). reflexivity.
Qed.

Lemma plain_kind c : plain c -> c_kind c <> kBuiltin /\ c_kind c <> kType.
Proof. inversion 1; simpl; auto. Qed.

Section BuildSymsNil.
  Variable root : list cdef.
  Variable rec : cdef -> path -> scope -> list marg -> list marg -> res inst.
  Variable ebi : cdef -> path -> res bool.
  Variables (me : scope) (myref : path).

  Lemma build_syms_elem s ss acc :
    s_mods s = [] -> mem_id (head_id (s_type s)) BUILTIN = true ->
    build_syms root false rec ebi me myref (s :: ss) [] [] acc =
    build_syms root false rec ebi me myref ss [] []
      (ISym (s_name s) (s_prefixes s) (s_dims s) (TyElem (s_type s)) [] :: acc).
  Proof. intros Hm E. cbn [build_syms]. rewrite E, Hm. reflexivity. Qed.

  Lemma build_syms_inst s ss acc :
    s_mods s = [] -> mem_id (head_id (s_type s)) BUILTIN = false ->
    build_syms root false rec ebi me myref (s :: ss) [] [] acc =
    match lookup me (s_type s) with
    | None => Err ClassNotFound
    | Some (tc, tlex, tparent, b) =>
        _ <- (if b : bool then Ok false else ebi tc tlex) ;;
        i <- rec tc tlex tparent [] [] ;;
        build_syms root false rec ebi me myref ss [] []
          (ISym (s_name s) (s_prefixes s) (s_dims s) (TyInst i) [] :: acc)
    end.
  Proof.
    intros Hm E. cbn [build_syms mlookup]. rewrite E, Hm.
    destruct (lookup me (s_type s)) as [[[[tc tlex] tparent] b]|]; [|reflexivity].
    destruct (if b then Ok false else ebi tc tlex) as [[|]|]; destruct b; reflexivity.
  Qed.
End BuildSymsNil.

(* build, then flatten_symbols, against the specification's inst_go; generic in the invariant CP of the classes
   that are instantiated and in the relation REL between the model's parent chain and the specification's scope *)
Section Loop.
  Variable root : list cdef.
  Variable CP : cdef -> path -> scope -> Prop.
  Variable REL : scope -> scope -> Prop.

  (* `me`: the frame of the model; sc: the declaring scope of the specification *)
  Definition type_ok (me sc : scope) (t : path) : Prop :=
    forall tc tlex tparent b, lookup me t = Some (tc, tlex, tparent, b) ->
      (alias tc \/ CP tc tlex tparent) /\ exists tS b2, lookup sc t = Some (tc, tlex, tS, b2) /\ REL tparent tS.

  Inductive built (f : nat) : sym -> scope -> isym -> Prop :=
  | BElem s sc :
      mem_id (head_id (s_type s)) BUILTIN = true ->
      built f s sc (ISym (s_name s) (s_prefixes s) (s_dims s) (TyElem (s_type s)) [])
  | BInst s sc tc tlex tparent tS b2 i :
      mem_id (head_id (s_type s)) BUILTIN = false ->
      alias tc \/ CP tc tlex tparent ->
      lookup sc (s_type s) = Some (tc, tlex, tS, b2) -> REL tparent tS ->
      build root false f tc tlex tparent [] [] = Ok i ->
      built f s sc (ISym (s_name s) (s_prefixes s) (s_dims s) (TyInst i) []).

  Definition el_built (f : nat) (el : elem) (y : isym) : Prop :=
    built f (el_sym el) (el_scope el) y /\ el_mods el = [].

  Lemma build_syms_plain f me myref :
    forall els,
    Forall (fun el => type_ok me (el_scope el) (s_type (el_sym el)) /\ el_mods el = []) els ->
    Forall plain_sym (map el_sym els) ->
    forall acc l rest,
    build_syms root false (build root false f) (extends_builtin root f) me myref (map el_sym els) [] [] acc = Ok (l, rest) ->
    exists l', l = rev acc ++ l' /\ Forall2 (el_built f) els l'.
  Proof.
    induction els as [|[[s sc] mods] els IH]; intros Hok Hp acc l rest H; cbn [map el_sym fst] in *.
    - inversion H; subst. exists []. rewrite app_nil_r. split; [reflexivity | constructor].
    - inversion Hok as [|? ? [Ht Hmods] Hok']; inversion Hp as [|? ? [Hm _] Hp']; subst.
      cbn [el_sym el_scope fst snd] in Ht. specialize (IH Hok' Hp').
      destruct (mem_id (head_id (s_type s)) BUILTIN) eqn:E.
      + rewrite (build_syms_elem root _ _ me myref s _ acc Hm E) in H.
        destruct (IH _ l rest H) as [l' [-> F]].
        eexists (_ :: l'). split; [cbn [rev]; rewrite <- app_assoc; reflexivity|].
        constructor; [split; [apply BElem; assumption | assumption] | assumption].
      + rewrite (build_syms_inst root _ _ me myref s _ acc Hm E) in H.
        destruct (lookup me (s_type s)) as [[[[tc tlex] tparent] b]|] eqn:L; [|discriminate H].
        destruct (if b then Ok false else extends_builtin root f tc tlex); cbn [bind] in H; [|discriminate H].
        destruct (build root false f tc tlex tparent [] []) as [i|] eqn:B; cbn [bind] in H; [|discriminate H].
        destruct (IH _ l rest H) as [l' [-> F]].
        eexists (_ :: l'). split; [cbn [rev]; rewrite <- app_assoc; reflexivity|].
        destruct (Ht _ _ _ _ L) as [Hcp (tS & b2 & L2 & Hr)].
        constructor; [split; [exact (BInst f s sc tc tlex tparent tS b2 i E Hcp L2 Hr B) | assumption] | assumption].
  Qed.

  Definition refines_at (f : nat) : Prop :=
    forall c lex parent Sp prefix i r,
      CP c lex parent -> REL parent Sp ->
      build root false f c lex parent [] [] = Ok i ->
      flatten_symbols i prefix = Ok r ->
      inst_go f c lex Sp prefix [] = Some (map var_of (fst r), snd r) /\ Forall clean (fst r).

  (* what build does on an instantiated class, against the specification's elements of that class *)
  Definition class_step (f : nat) : Prop :=
    forall c lex parent Sp prefix i,
      CP c lex parent -> REL parent Sp ->
      build root false (S f) c lex parent [] [] = Ok i ->
      exists me els l rest raw,
        i = Inst (scope_ref me) (c_kind c) l raw rest /\
        build_syms root false (build root false f) (extends_builtin root f) me (scope_ref me)
                   (map el_sym els) [] [] [] = Ok (l, rest) /\
        elems f c lex Sp prefix [] = Some (els, raw) /\
        Forall plain_sym (map el_sym els) /\
        Forall (fun el => type_ok me (el_scope el) (s_type (el_sym el)) /\ el_mods el = []) els.

  Hypothesis HKind : forall c lex parent, CP c lex parent -> c_kind c <> kBuiltin /\ c_kind c <> kType.
  Hypothesis HStep : forall f, class_step f.

  Definition goes_on (f : nat) (prefix : path) (els : list elem) (l' : list isym) : Prop :=
    forall flat feqs r, Forall clean flat ->
      fs_go flatten_symbols prefix l' flat feqs = Ok r ->
      inst_elems (inst_go f) (elem_type f) prefix els (map var_of flat) feqs
        = Some (map var_of (fst r), snd r) /\ Forall clean (fst r).

  Lemma goes_on_update f prefix els l' flat new feqs r :
    goes_on f prefix els l' -> Forall clean flat -> Forall clean new ->
    fs_go flatten_symbols prefix l' (f_update flat new) feqs = Ok r ->
    inst_elems (inst_go f) (elem_type f) prefix els (v_update (map var_of flat) (map var_of new)) feqs
      = Some (map var_of (fst r), snd r) /\ Forall clean (fst r).
  Proof. intros G Hc Cn H. rewrite <- var_of_update. exact (G _ _ r (od_update_Forall _ _ _ _ _ Hc Cn) H). Qed.

  Lemma goes_on_leaf f prefix s sc els l' t flat feqs r :
    goes_on f prefix els l' -> plain_sym s -> Forall clean flat ->
    elem_type f sc (s_type s) = Some (Some (t, [])) ->
    fs_go flatten_symbols prefix l'
      (f_update flat [mkF (prefix ++ [s_name s]) t (strip_io prefix (s_prefixes s)) (s_dims s) [] []]) feqs = Ok r ->
    inst_elems (inst_go f) (elem_type f) prefix ((s, sc, []) :: els) (map var_of flat) feqs
      = Some (map var_of (fst r), snd r) /\ Forall clean (fst r).
  Proof.
    intros G [Hm Hnd] Hc Et H. cbn [inst_elems]. rewrite Et, Hm.
    change (leaf_attrs ((sub_mods (s_name s) [] ++ flat_args (Some prefix) []) ++ []))
      with (@nil (ident * expr * option path)).
    rewrite <- (strip_drop prefix (s_prefixes s) Hnd).
    apply (goes_on_update f prefix els l' flat [mkF (prefix ++ [s_name s]) t (strip_io prefix (s_prefixes s)) (s_dims s) [] []]
             feqs r G Hc); [|exact H].
    constructor; [split; reflexivity | constructor].
  Qed.

  Lemma fs_inst f prefix :
    refines_at f ->
    forall els l', Forall2 (el_built f) els l' -> Forall plain_sym (map el_sym els) -> goes_on f prefix els l'.
  Proof.
    intros IHf els l' F. induction F as [|[[s sc] mods] y els l' [Hb Hmods] F IH]; intros Hp flat feqs r Hc H.
    - cbn [fs_go] in H. inversion H; subst. cbn [inst_elems fst snd]. split; [reflexivity | assumption].
    - cbn [el_sym el_scope el_mods fst snd map] in *. subst mods.
      inversion Hp as [|? ? Hs Hp']; subst. specialize (IH Hp').
      destruct Hb as [s sc E | s sc tc tlex tparent tS b2 i E Hcp L2 Hs2 B].
      + exact (goes_on_leaf f prefix s sc els l' _ flat feqs r IH Hs Hc (elem_type_builtin f sc (s_type s) E) H).
      + destruct f as [|f']; [discriminate B|]. destruct Hcp as [Hal|Htc].
        * destruct (build_alias root (S f') tc tlex tparent i Hal B) as [ra [rm [t [-> [Etc Ht]]]]].
          rewrite Etc in L2.
          exact (goes_on_leaf _ prefix s sc els l' [t] flat feqs r IH Hs Hc (elem_type_alias f' sc (s_type s) _ t tlex tS b2 E Ht L2) H).
        * destruct (HStep f' tc tlex tparent tS [] i Htc Hs2 B) as (me' & _ & rb & re & rd & -> & _).
          destruct (HKind _ _ _ Htc) as [K1 K2].
          cbn [fs_go] in H. rewrite (collapses_plain _ (c_kind tc) rb rd re K1 K2) in H.
          destruct (flatten_symbols _ (prefix ++ [s_name s])) as [r0|err] eqn:Fs;
            cbn [bind] in H; [|discriminate H].
          destruct (IHf tc tlex tparent tS (prefix ++ [s_name s]) _ r0 Htc Hs2 B Fs) as [I0 C0].
          cbn [inst_elems].
          rewrite (elem_type_struct f' sc (s_type s) tc tlex tS b2 E L2 K2). rewrite L2, (proj1 Hs).
          change (sub_mods (s_name s) [] ++ flat_args (Some (prefix)) []) with (@nil mentry).
          rewrite I0.
          assert (Forall clean (map (fun s0 => mkF (f_name s0) (f_type s0) (f_prefixes s0) (s_dims s ++ f_dims s0)
                                                    (f_attrs s0) (f_cmods s0)) (fst r0))) as Cn
            by (apply Forall_map; eapply Forall_impl; [|exact C0]; intros s0 [A1 A2]; split; assumption).
          pose proof (goes_on_update _ prefix els l' flat _ (feqs ++ snd r0) r IH Hc Cn H) as R.
          rewrite map_map in R |- *. exact R.
  Qed.

  Theorem instance_refines : forall n, refines_at n.
  Proof.
    induction n as [|n IHn]; intros c lex parent Sp prefix i r Hc Hr B Fs; [discriminate B|].
    destruct (HStep n c lex parent Sp prefix i Hc Hr B) as (me & els & l & rest & raw & -> & BS & EE & Hp & Hok).
    destruct (build_syms_plain n me _ els Hok Hp _ _ _ BS) as [l' [-> F]].
    cbn [rev app flatten_symbols] in Fs.
    destruct (fs_go flatten_symbols prefix l' [] []) as [[flat feqs]|err] eqn:G; cbn [bind] in Fs; [|discriminate Fs].
    destruct (fs_inst n prefix IHn els l' F Hp [] [] (flat, feqs) (Forall_nil _) G) as [IS Cl].
    cbn [fst snd map] in IS.
    rewrite (fs_finish_clean _ prefix raw flat feqs Cl) in Fs. inversion Fs; subst r; clear Fs.
    cbn [fst snd]. split; [|assumption].
    cbn [inst_go]. rewrite EE, IS, !map_map. reflexivity.
  Qed.

  Theorem flatten_refines top r :
    (forall c lex parent b, lookup (lex_scope root []) top = Some (c, lex, parent, b) ->
                            CP c lex parent /\ REL parent parent) ->
    flatten root false top = Ok r ->
    Forall clean (fst r) /\ PV.Lib.Inst.inst root top = Some (map var_of (fst r), snd r).
  Proof.
    intros Htop H. unfold flatten in H. unfold PV.Lib.Inst.inst.
    destruct (lookup (lex_scope root []) top) as [[[[c lex] parent] b]|]; [|discriminate H].
    destruct (Htop _ _ _ _ eq_refl) as [Hc Hr].
    destruct (build root false FUEL c lex parent [] []) as [i|err] eqn:B; cbn [bind] in H; [|discriminate H].
    destruct (flatten_symbols i []) as [[flat eqs]|err] eqn:Fs; cbn [bind] in H; [|discriminate H].
    inversion H; subst r; clear H.
    destruct (instance_refines FUEL c lex parent parent [] i (flat, eqs) Hc Hr B Fs) as [I Cl].
    cbn [fst snd] in *.
    (* the fuel of the specification and of the model are the same number *)
    change INST_FUEL with FUEL. rewrite I.
    destruct (conventions_clean flat Cl) as (D & V & CV & CE). rewrite D, V, CV, CE, app_nil_r.
    split; [assumption | reflexivity].
  Qed.
End Loop.

Definition CP_plain (c : cdef) (lex : path) (parent : scope) : Prop := plain c /\ Forall pframe parent.

Lemma all_classes_plain f c lex S :
  c_exts c = [] ->
  all_classes f c lex S = od_update e_key Pos.eqb [] (entries_of (lex ++ [c_name c]) (c_classes c)).
Proof. intros E. destruct f; cbn [all_classes]; [reflexivity|]. rewrite E. reflexivity. Qed.

Lemma elems_plain f c lex Sp prefix mods :
  c_exts c = [] -> NoDup (map s_name (c_syms c)) ->
  elems (S f) c lex Sp prefix mods =
  Some (map (fun s => (s, class_scope f c lex Sp, mods)) (c_syms c), c_eqs c).
Proof.
  intros E N. cbn [elems]. rewrite E. cbn [fold_left app]. unfold e_update.
  rewrite (od_update_fresh el_name Pos.eqb Pos.eqb_eq _ []); [reflexivity|].
  cbn [map app]. rewrite map_map. exact N.
Qed.

Lemma plain_step root f : class_step root CP_plain sim f.
Proof.
  intros c lex parent Sp prefix i [Hc Hpar] Hsim B.
  destruct f as [|f]; [discriminate B|].
  inversion Hc as [nm k cs ss es Hk Ht Hcs Hss Hnd]; subst c.
  rewrite (build_of_ext root false (S f) _ lex parent _
             (flatten_extends_no_extends root f (CDef nm k cs [] ss es) lex [] eq_refl Hk)) in B by auto.
  cbn [x_kind x_classes x_syms x_eqs c_kind c_name c_classes c_syms c_eqs] in B.
  rewrite (od_update_fresh s_name Pos.eqb Pos.eqb_eq ss []) in B by exact Hnd. cbn [app] in B.
  set (c := CDef nm k cs [] ss es) in *.
  set (me := mkFrame (Some nm) true (od_update e_key Pos.eqb [] (entries_of (lex ++ [nm]) cs)) None :: parent) in *.
  destruct (build_syms root false (build root false (S f)) (extends_builtin root (S f)) me (scope_ref me) ss [] [] [])
    as [[l rest]|err] eqn:BS; cbn [bind] in B; [|discriminate B].
  inversion B; subst i; clear B.
  assert (map el_sym (map (fun s => (s, class_scope f c lex Sp, @nil mentry)) ss) = ss) as Es
    by (rewrite map_map; apply map_id).
  exists me, (map (fun s => (s, class_scope f c lex Sp, [])) ss), l, rest, es.
  rewrite Es. split; [reflexivity|]. split; [exact BS|].
  split; [exact (elems_plain f c lex Sp prefix [] eq_refl Hnd)|]. split; [exact Hss|].
  assert (Forall pframe me) as Hme.
  { constructor; [|assumption]. unfold pframe. cbn [f_entries].
    apply od_update_Forall; [constructor | apply pclass_entries; assumption]. }
  assert (sim me (class_scope f c lex Sp)) as Hs.
  { unfold me, class_scope. rewrite all_classes_plain by reflexivity.
    constructor; [split; reflexivity | assumption]. }
  apply Forall_map, Forall_forall. intros s _. split; [|reflexivity].
  intros tc tlex tparent b L. cbn [el_scope el_sym fst snd] in *. split.
  - destruct (lookup_pclass _ _ _ _ _ _ Hme L) as [[Hp|Hal] Hf]; [right; split; assumption | left; assumption].
  - exact (lookup_sim _ _ _ _ _ _ _ Hs L).
Qed.

(* every class is a plain model/package/... or an alias `type T = Real;` *)
Definition plain_lib (root : list cdef) : Prop := Forall pclass root.

Theorem refines_flat root top r :
  plain_lib root -> ~ (exists c lex Sp b, lookup (lex_scope root []) top = Some (c, lex, Sp, b) /\ alias c) ->
  flatten root false top = Ok r ->
  Forall clean (fst r) /\ PV.Lib.Inst.inst root top = Some (map var_of (fst r), snd r).
Proof.
  intros Hroot Htop.
  apply (flatten_refines root CP_plain sim (fun c _ _ H => plain_kind c (proj1 H)) (plain_step root)).
  intros c lex parent b L.
  assert (Forall pframe (lex_scope root [])) as Hsc.
  { unfold lex_scope. cbn [lex_frames_from]. constructor; [|constructor].
    unfold pframe. cbn [f_entries]. apply pclass_entries. exact Hroot. }
  destruct (lookup_pclass _ _ _ _ _ _ Hsc L) as [[Hc|Hal] Hpar].
  - split; [split; assumption | apply sim_refl].
  - exfalso. apply Htop. eexists _, _, _, _. split; [exact L | exact Hal].
Qed.
