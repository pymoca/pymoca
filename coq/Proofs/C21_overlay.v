(* C21 — two writers on one file at byte level (Model/C21_crash.v Part 3).
   One write call per save: any two option sets, any interleaving, any reader: fine.
   The same stream written in chunks that end where the decoder expects an opcode: every intermediate
   file is a prefix of the stream, or has a zero byte where an opcode is expected (Bad) — a third
   reader never gets a wrong value. *)
From Coq Require Import List Arith Bool Lia.
From PV Require Import Lib.Prefix Model.C21_crash Proofs.C21_crash.
Import ListNotations.

Lemma run_app_value (s : st) inp v tail :
  run step s inp = Value v [] -> run step s (inp ++ tail) = Value v tail.
Proof.
  revert s. induction inp as [|b inp IH]; intros s H; [discriminate|].
  cbn [app]. rewrite run_cons in *. destruct (step s b) as [v'|s'|].
  - injection H as -> ->. reflexivity.
  - apply IH, H.
  - discriminate.
Qed.

Lemma decode_dump_tail v tail : decode (dump v ++ tail) = Value v tail.
Proof. apply run_app_value, dump_accepted. Qed.

Lemma run_feed pre : forall s s' rest, feed s pre = Some s' -> run step s (pre ++ rest) = run step s' rest.
Proof.
  induction pre as [|b pre IH]; intros s s' rest H.
  - injection H as <-. reflexivity.
  - cbn [app feed] in *. rewrite run_cons. destruct (step s b) as [v|s1|]; try discriminate. apply IH, H.
Qed.

Lemma op_step_zero s : op_step s 0 = Fail.
Proof. reflexivity. Qed.

Lemma hole_is_bad s p rest : boundary s p = true -> decode (firstn p s ++ 0 :: rest) = Bad.
Proof.
  unfold boundary, decode. destruct (feed init (firstn p s)) as [s'|] eqn:E; [|discriminate].
  destruct (md s') eqn:Em; try discriminate. intros _.
  rewrite (run_feed _ _ _ _ E), run_cons. unfold step. rewrite Em, op_step_zero. reflexivity.
Qed.

Lemma ov_run_invariant sA sB (ok : ev -> bool) (P : ov -> Prop) :
  (forall x e, ok e = true -> P x -> P (ov_step sA sB x e)) ->
  forall evs x, forallb ok evs = true -> P x -> P (ov_run sA sB x evs).
Proof.
  intros Hstep. induction evs as [|e evs IH]; intros x Hok Hx; [exact Hx|].
  cbn [forallb] in Hok. apply andb_true_iff in Hok as [H1 H2]. exact (IH _ H2 (Hstep x e H1 Hx)).
Qed.

Definition shape_whole (sA sB : list byte) (x : ov) : Prop :=
  (offA x = 0 \/ length sA <= offA x) /\ (offB x = 0 \/ length sB <= offB x) /\
  (opA x || opB x = true ->
   exists f, ofile x = Some f /\ (f = [] \/ (exists tl, f = sA ++ tl) \/ (exists tl, f = sB ++ tl))).

Lemma write_at_0 f c : write_at f 0 c = c ++ skipn (length c) f.
Proof. destruct c as [|b c]; [reflexivity|]. unfold write_at. cbn [firstn Nat.sub repeat app Nat.add]. reflexivity. Qed.

Lemma chunk_whole s n : length s <= n -> chunk s 0 n = s.
Proof. intros H. unfold chunk. cbn [skipn]. apply firstn_all2, H. Qed.
Lemma chunk_done s off n : length s <= off -> chunk s off n = [].
Proof. intros H. unfold chunk. rewrite skipn_all2 by exact H. apply firstn_nil. Qed.

Lemma write_whole s f off n : length s <= n -> off = 0 \/ length s <= off ->
  length s <= off + length (chunk s off n) /\
  (write_at f off (chunk s off n) = f \/ exists tl, write_at f off (chunk s off n) = s ++ tl).
Proof.
  intros Hn [->|Ho].
  - rewrite (chunk_whole _ _ Hn). split; [apply le_n|]. right. rewrite write_at_0. eauto.
  - rewrite (chunk_done _ _ _ Ho). split; [lia|]. left. reflexivity.
Qed.

Lemma shape_whole_step sA sB x e : whole sA sB e = true -> shape_whole sA sB x -> shape_whole sA sB (ov_step sA sB x e).
Proof.
  intros Hw Hx. destruct e as [| |n|n]; cbn [ov_step whole] in *.
  - destruct Hx as (_ & Hb & _). split; [left; reflexivity|]. split; [exact Hb|]. intros _. exists []. auto.
  - destruct Hx as (Ha & _ & _). split; [exact Ha|]. split; [left; reflexivity|]. intros _. exists []. auto.
  - apply Nat.leb_le in Hw. destruct (opA x) eqn:Eo; [|exact Hx]. destruct Hx as (Ha & Hb & Hf).
    destruct Hf as (f & Ef & Hs); [rewrite Eo; reflexivity|].
    destruct (write_whole sA f (offA x) n Hw Ha) as (Ho & Hf').
    split; [right; exact Ho|]. split; [exact Hb|]. intros _. cbn [ofile]. rewrite Ef.
    eexists. split; [reflexivity|]. destruct Hf' as [->|[tl ->]]; [exact Hs|eauto].
  - apply Nat.leb_le in Hw. destruct (opB x) eqn:Eo; [|exact Hx]. destruct Hx as (Ha & Hb & Hf).
    destruct Hf as (f & Ef & Hs); [rewrite Eo; apply orb_true_r|].
    destruct (write_whole sB f (offB x) n Hw Hb) as (Ho & Hf').
    split; [exact Ha|]. split; [right; exact Ho|]. intros _. cbn [ofile]. rewrite Ef.
    eexists. split; [reflexivity|]. destruct Hf' as [->|[tl ->]]; [exact Hs|eauto].
Qed.

Lemma shape_whole_ov0 sA sB f : shape_whole sA sB (ov0 f).
Proof. split; [left; reflexivity|]. split; [left; reflexivity|]. discriminate. Qed.

(* A third caller at ANY point of ANY interleaving of two saves (any option sets oa, ob) whose write
   calls each deliver the whole stream: correct model or recompile; bx is arbitrary because such a file
   never decodes to Bad. *)
Theorem single_chunk_reader t w oa ob evs o e bx : routes_ok t = true -> Inv w ->
  forallb (whole (stream w oa) (stream w ob)) evs = true ->
  answered t w o (load_gen t (ov_world w oa ob evs) o e bx).
Proof.
  intros Hr Hi Hw. unfold ov_world.
  pose proof (ov_run_invariant _ _ _ _ (shape_whole_step _ _) evs _ Hw (shape_whole_ov0 _ _ (option_map fst (cfile w)))) as (_ & _ & Hf).
  destruct (opA _ || opB _); [|exact (load_gen_ok t w o e bx Hr Hi)].
  destruct (Hf eq_refl) as (f & Ef & Hs). rewrite Ef.
  apply (load_gen_verdict t (set_cfile w (Some (f, clock w))) o e bx f (clock w) Hr eq_refl). intros _.
  destruct Hs as [->|[[tl ->]|[tl ->]]]; [exact I| |]; unfold stream; rewrite decode_dump_tail; eauto.
Qed.

(* the file a third caller sees when the later opener has written p bytes (p an opcode boundary of the
   stream) and the earlier writer goes on beyond the gap: zero where an opcode is expected *)
Theorem hole_reader t w o' p rest o e : routes_ok t = true ->
  boundary (stream w o') p = true ->
  answered t w o (load_gen t (set_cfile w (Some (firstn p (stream w o') ++ 0 :: rest, clock w))) o e UnpicklingError).
Proof.
  intros Hr Hb. apply (load_gen_verdict t (set_cfile w (Some (_, clock w))) o e UnpicklingError _ (clock w) Hr eq_refl). intros _.
  rewrite (hole_is_bad _ _ _ Hb). apply (routes_unpickling t Hr).
Qed.

(* the three-phase schedule: A writes a0 bytes, B opens and writes b bytes, A writes up to a *)
Definition phase3 (a0 b a : nat) : list ev := [OpenA; WriteA a0; OpenB; WriteB b; WriteA (a - a0)].
Definition mask (s : list byte) (a0 b a : nat) : list byte :=
  if a <=? a0 then firstn b s
  else if b <? a0 then firstn b s ++ repeat 0 (a0 - b) ++ firstn (a - a0) (skipn a0 s)
  else firstn (Nat.max a b) s.

Lemma write_at_nil c : write_at [] 0 c = c.
Proof. rewrite write_at_0, skipn_nil. apply app_nil_r. Qed.

Lemma write_at_nonempty f off c : c <> [] ->
  write_at f off c = firstn off f ++ repeat 0 (off - length f) ++ c ++ skipn (off + length c) f.
Proof. now destruct c. Qed.

Lemma firstn_stretch (s : list byte) a0 a : a0 <= a -> firstn a0 s ++ firstn (a - a0) (skipn a0 s) = firstn a s.
Proof.
  intros H. rewrite <- (firstn_skipn a0 s) at 3. rewrite firstn_app, firstn_firstn, firstn_length.
  destruct (Nat.le_gt_cases a0 (length s)).
  - now rewrite Nat.min_r, Nat.min_l by lia.
  - rewrite (skipn_all2 s) by lia. now rewrite !firstn_nil, Nat.min_r by lia.
Qed.

Lemma phase3_mask s a0 b a : a <= length s ->
  ofile (ov_run s s (ov0 None) (phase3 a0 b a)) = Some (mask s a0 b (Nat.max a a0)).
Proof.
  (* after the two opens the run is two writes: B's prefix into the empty file, then A's stretch at a0 *)
  intros Ha. cbn -[write_at Nat.max]. unfold chunk. cbn [skipn]. rewrite !write_at_nil, firstn_length.
  f_equal. unfold mask. destruct (Nat.leb_spec (Nat.max a a0) a0) as [H|H].
  - now replace (a - a0) with 0 by lia.
  - rewrite Nat.max_l, (Nat.min_l a0) by lia.
    assert (Hc : length (firstn (a - a0) (skipn a0 s)) = a - a0) by (rewrite firstn_length, skipn_length; lia).
    rewrite write_at_nonempty, Hc by (intros E; rewrite E in Hc; cbn in Hc; lia).
    rewrite firstn_firstn, firstn_length. destruct (Nat.ltb_spec b a0) as [Hb|Hb].
    + (* B's prefix ends before a0: write_at fills the gap with zeros *)
      rewrite Nat.min_r, (Nat.min_l b), (skipn_all2 (firstn b s)), app_nil_r by (rewrite ?firstn_length; lia). reflexivity.
    + (* B's prefix reaches a0: A overwrites s with s, the result is the longer of the two prefixes *)
      rewrite Nat.min_l by lia. replace (a0 - Nat.min b (length s)) with 0 by lia. cbn [repeat app].
      rewrite app_assoc, firstn_stretch by lia. replace (a0 + (a - a0)) with a by lia.
      destruct (Nat.le_gt_cases b a).
      * rewrite Nat.max_l, skipn_all2, app_nil_r by (rewrite ?firstn_length; lia). reflexivity.
      * rewrite Nat.max_r by lia. rewrite <- (firstn_skipn a (firstn b s)) at 2. rewrite firstn_firstn. now rewrite Nat.min_l by lia.
Qed.

Lemma phase3_shape s n : n <= length s ->
  forallb (fun a0 => forallb (fun b => forallb (fun a =>
    match ofile (ov_run s s (ov0 None) (phase3 a0 b a)) with
    | Some f => if list_eq_dec Nat.eq_dec f (mask s a0 b (Nat.max a a0)) then true else false
    | None => false end) (seq 0 (S n))) (seq 0 (S n))) (seq 0 (S n)) = true.
Proof.
  intros Hn. apply forallb_forall; intros a0 _. apply forallb_forall; intros b _.
  apply forallb_forall; intros a Ha%in_seq. rewrite phase3_mask by lia. now destruct list_eq_dec.
Qed.

Lemma nth_skipn {A} (d : A) n : forall l i, nth i (skipn n l) d = nth (n + i) l d.
Proof. induction n; intros [|x l] i; cbn; auto. destruct i; reflexivity. Qed.

Lemma nth_firstn_lt {A} (d : A) n : forall l i, i < n -> nth i (firstn n l) d = nth i l d.
Proof. induction n; intros [|x l] [|i] H; cbn; auto; try lia. apply IHn. lia. Qed.

Lemma nth_write_at f off c p :
  nth p (write_at f off c) 0 =
  if p <? off then nth p f 0 else if p <? off + length c then nth (p - off) c 0 else nth p f 0.
Proof.
  unfold write_at. destruct c as [|b c].
  - cbn [length]. rewrite Nat.add_0_r. destruct (p <? off); reflexivity.
  - set (cc := b :: c). destruct (Nat.ltb_spec p off) as [H|H].
    + destruct (Nat.lt_ge_cases p (length f)) as [H'|H'].
      * rewrite app_nth1 by (rewrite firstn_length; lia). apply nth_firstn_lt, H.
      * rewrite app_nth2 by (rewrite firstn_length; lia). rewrite firstn_length.
        rewrite app_nth1 by (rewrite repeat_length; lia). rewrite nth_repeat. symmetry. apply nth_overflow, H'.
    + rewrite app_assoc. rewrite app_nth2 by (rewrite app_length, firstn_length, repeat_length; lia).
      rewrite app_length, firstn_length, repeat_length.
      replace (p - (Nat.min off (length f) + (off - length f))) with (p - off) by lia.
      destruct (Nat.ltb_spec p (off + length cc)) as [H1|H1].
      * apply app_nth1. lia.
      * rewrite app_nth2 by lia. rewrite nth_skipn. f_equal. lia.
Qed.

Lemma length_write_at f off c :
  length (write_at f off c) = if length c =? 0 then length f else Nat.max (length f) (off + length c).
Proof.
  unfold write_at. destruct c as [|b c]; [reflexivity|].
  rewrite !app_length, firstn_length, repeat_length, skipn_length. cbn [length Nat.eqb]. lia.
Qed.

Lemma length_chunk s off n : length (chunk s off n) = Nat.min n (length s - off).
Proof. unfold chunk. rewrite firstn_length, skipn_length. reflexivity. Qed.

Lemma nth_chunk s off n i : i < length (chunk s off n) -> nth i (chunk s off n) 0 = nth (off + i) s 0.
Proof.
  intros H. rewrite length_chunk in H. unfold chunk. rewrite nth_firstn_lt by lia. apply nth_skipn.
Qed.

Lemma write_chunk_pointwise s f (W : nat -> bool) off n :
  (forall p, nth p f 0 = if W p then nth p s 0 else 0) ->
  forall p, nth p (write_at f off (chunk s off n)) 0 =
            if W p || ((off <=? p) && (p <? off + length (chunk s off n))) then nth p s 0 else 0.
Proof.
  intros Hf p. rewrite nth_write_at. destruct (Nat.ltb_spec p off) as [H|H].
  - rewrite (proj2 (Nat.leb_gt off p) H), orb_false_r. apply Hf.
  - rewrite (proj2 (Nat.leb_le off p) H), andb_true_l.
    destruct (Nat.ltb_spec p (off + length (chunk s off n))) as [H1|H1].
    + rewrite orb_true_r, nth_chunk by lia. f_equal. lia.
    + rewrite orb_false_r. apply Hf.
Qed.

(* The later opener is B: it has just truncated the file when A stood at offset a0.  From then on, for ANY
   interleaving of write calls of ANY sizes, the file is exactly: the bytes of s at the positions written
   since (B's prefix [0, offB) and A's stretch [a0, offA)), zeros in the gap between them. *)
Definition written (a0 a b p : nat) : bool := (p <? b) || ((a0 <=? p) && (p <? a)).
Definition shapeS (s : list byte) (a0 : nat) (x : ov) : Prop :=
  opA x = true /\ opB x = true /\ a0 <= offA x /\ offA x <= length s /\ offB x <= length s /\
  exists f, ofile x = Some f /\
            length f = Nat.max (offB x) (if a0 <? offA x then offA x else 0) /\
            forall p, nth p f 0 = if written a0 (offA x) (offB x) p then nth p s 0 else 0.

Definition is_write (e : ev) : bool := match e with WriteA _ | WriteB _ => true | _ => false end.

Lemma written_spec a0 a b p : written a0 a b p = true <-> p < b \/ a0 <= p < a.
Proof. unfold written. rewrite orb_true_iff, andb_true_iff, !Nat.ltb_lt, Nat.leb_le. reflexivity. Qed.

Lemma written_more_A a0 a b n p : a0 <= a ->
  written a0 a b p || ((a <=? p) && (p <? a + n)) = written a0 (a + n) b p.
Proof.
  intros H. apply eq_true_iff_eq. rewrite orb_true_iff, andb_true_iff, !written_spec, Nat.leb_le, Nat.ltb_lt. lia.
Qed.

Lemma written_more_B a0 a b n p :
  written a0 a b p || ((b <=? p) && (p <? b + n)) = written a0 a (b + n) p.
Proof.
  apply eq_true_iff_eq. rewrite orb_true_iff, andb_true_iff, !written_spec, Nat.leb_le, Nat.ltb_lt. lia.
Qed.

Lemma shapeS_step s a0 x e : is_write e = true -> shapeS s a0 x -> shapeS s a0 (ov_step s s x e).
Proof.
  intros He (HA & HB & Ha0 & Ha & Hb & f & Ef & Hl & Hn). destruct e as [| |n|n]; try discriminate; cbn [ov_step].
  - (* WriteA *) rewrite HA, Ef. pose proof (length_chunk s (offA x) n) as Lc.
    unfold shapeS; cbn [offA offB opA opB ofile option_map].
    split; [reflexivity|]. split; [exact HB|]. split; [lia|]. split; [lia|]. split; [exact Hb|].
    eexists. split; [reflexivity|]. split.
    + rewrite length_write_at, Hl. clear -Ha0.
      destruct (Nat.eqb_spec (length (chunk s (offA x) n)) 0), (Nat.ltb_spec a0 (offA x)),
        (Nat.ltb_spec a0 (offA x + length (chunk s (offA x) n))); lia.
    + intros p. rewrite (write_chunk_pointwise s f _ _ _ Hn), (written_more_A _ _ _ _ _ Ha0). reflexivity.
  - (* WriteB *) rewrite HB, Ef. pose proof (length_chunk s (offB x) n) as Lc.
    unfold shapeS; cbn [offA offB opA opB ofile option_map].
    split; [exact HA|]. split; [reflexivity|]. split; [exact Ha0|]. split; [exact Ha|]. split; [lia|].
    eexists. split; [reflexivity|]. split.
    + rewrite length_write_at, Hl. clear. generalize (if a0 <? offA x then offA x else 0). intros m.
      destruct (Nat.eqb_spec (length (chunk s (offB x) n)) 0); lia.
    + intros p. rewrite (write_chunk_pointwise s f _ _ _ Hn), written_more_B. reflexivity.
Qed.

Lemma shapeS_run s a0 evs x : forallb is_write evs = true -> shapeS s a0 x -> shapeS s a0 (ov_run s s x evs).
Proof. exact (ov_run_invariant s s _ _ (shapeS_step s a0) evs x). Qed.

Lemma firstn_ext {A} (d : A) b : forall f s, b <= length f -> b <= length s ->
  (forall p, p < b -> nth p f d = nth p s d) -> firstn b f = firstn b s.
Proof.
  intros f s Hf Hs H. apply (nth_ext _ _ d d); rewrite !firstn_length, Nat.min_l by assumption.
  - symmetry. apply Nat.min_l, Hs.
  - intros p Hp. rewrite !nth_firstn_lt by assumption. apply H, Hp.
Qed.

Lemma split_nth {A} (d : A) : forall f b, b < length f -> f = firstn b f ++ nth b f d :: skipn (S b) f.
Proof.
  induction f as [|x f IH]; intros b H; [cbn in H; lia|].
  destruct b as [|b]; [reflexivity|]. cbn [firstn nth skipn app]. f_equal. apply IH. cbn in H. lia.
Qed.

(* the boundary is asked for only until B has written all of the stream: the end of the stream is not one,
   the decoder has stopped there *)
Lemma shapeS_decode v a0 x : shapeS (dump v) a0 x ->
  (offB x < length (dump v) -> boundary (dump v) (offB x) = true) ->
  exists f, ofile x = Some f /\ (decode f = EOF \/ decode f = Bad \/ decode f = Value v []).
Proof.
  intros (HA & HB & Ha0 & Ha & Hb & f & Ef & Hl & Hn) Hbd. exists f. split; [exact Ef|].
  set (s := dump v) in *. set (a := offA x) in *. set (b := offB x) in *.
  (* either B's prefix ends before A's stretch begins, or every position of the file has been written *)
  assert (D : b < a0 < a \/ forall p, p < length f -> written a0 a b p = true).
  { rewrite Hl. destruct (Nat.ltb_spec a0 a); [destruct (Nat.lt_ge_cases b a0); [left; lia|]|];
      right; intros p Hp; apply written_spec; lia. }
  destruct D as [Hh|Hall].
  - right. left. assert (Hbl : b < length f) by (rewrite Hl; destruct (Nat.ltb_spec a0 a); lia).
    assert (Hz : written a0 a b b = false) by (apply not_true_iff_false; rewrite written_spec; lia).
    rewrite (@split_nth byte 0 f b Hbl), (Hn b), Hz, (@firstn_ext byte 0 b f s); [apply hole_is_bad, Hbd; lia|lia|exact Hb|].
    intros p Hp. rewrite Hn, (proj2 (written_spec a0 a b p)) by lia. reflexivity.
  - assert (E : f = firstn (length f) s).
    { rewrite <- (firstn_all f) at 1. apply (@firstn_ext byte 0); [apply le_n|rewrite Hl; destruct (a0 <? a); lia|].
      intros p Hp. rewrite Hn, (Hall p Hp). reflexivity. }
    rewrite E. unfold s. rewrite decode_firstn. destruct (skipn _ _); auto.
Qed.

(* the state right after the later open: file empty, B at 0, A at a0 *)
Definition after_open (a0 : nat) : ov := Ov (Some []) a0 0 true true.

Lemma shapeS_after_open s a0 : a0 <= length s -> shapeS s a0 (after_open a0).
Proof.
  intros H. unfold shapeS, after_open. cbn [opA opB offA offB ofile]. repeat split; try lia.
  exists []. split; [reflexivity|]. split.
  - rewrite Nat.ltb_irrefl. reflexivity.
  - intros p. destruct (written a0 a0 0 p) eqn:E; [apply written_spec in E; lia|]. destruct p; reflexivity.
Qed.

(* Same stream, several write calls of ANY sizes, ANY interleaving after the second open, cut anywhere (evs is
   arbitrary), a third caller with ANY options: correct model or recompile — provided the later opener's
   offset is an opcode boundary at the moment of the load (its write calls end where an opcode starts)
   or it has written all of the stream. *)
Theorem chunked_same_stream_reader t w o' a0 evs o e : routes_ok t = true ->
  a0 <= length (stream w o') -> forallb is_write evs = true ->
  let x := ov_run (stream w o') (stream w o') (after_open a0) evs in
  (offB x < length (stream w o') -> boundary (stream w o') (offB x) = true) ->
  answered t w o (load_gen t (set_cfile w (option_map (fun f => (f, clock w)) (ofile x))) o e UnpicklingError).
Proof.
  intros Hr Ha Hw x Hb. unfold stream in *.
  pose proof (shapeS_run _ a0 evs _ Hw (shapeS_after_open _ a0 Ha)) as Hs. fold x in Hs.
  destruct (shapeS_decode _ a0 x Hs Hb) as (f & Ef & Hd). rewrite Ef.
  apply (load_gen_verdict t (set_cfile w (Some (f, clock w))) o e UnpicklingError f (clock w) Hr eq_refl). intros _.
  destruct Hd as [-> | [-> | ->]]; [exact I|apply (routes_unpickling t Hr)|eauto].
Qed.
