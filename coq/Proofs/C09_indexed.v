(* C09 — indexed names: a segment is an identifier with a list of integer subscripts, so an array
   element a[1].p.i is just another structured name [(a,[1]); (p,[]); (i,[])] of the generic model.
   pymoca removes zero defaults by the array NAME (tree.py:1122-1123 pops the index-free name):
   expand_byname mirrors that; it agrees with the generic model when every array is connected
   all-or-none, and differs on  Pin t[2]; connect(t[1], u). *)
From stdpp Require Import gmap.
From Coq Require Import QArith Qcanon.
From PV Require Import Lib.Closure Model.C09_connect Proofs.C09_connect.
Close Scope Qc_scope.
Close Scope Q_scope.

Notation iseg := (positive * list Z)%type.
Notation ivar := (list iseg).
Notation ikey := (ivar * bool)%type.
Notation fclauseI := ((ivar * bool) * (ivar * bool) * list (iseg * kind))%type.

Definition strip (n : ivar) : list positive := map fst n.

Definition untouched_byname (P : list (ikey * ikey)) (n : ivar) : Prop :=
  Forall (fun p : ikey * ikey => strip n ≠ strip p.1.1 ∧ strip n ≠ strip p.2.1) P.
Global Instance untouched_byname_dec P n : Decision (untouched_byname P n).
Proof. unfold untouched_byname. apply _. Defined.

Definition expand_byname (flows : list ivar) (cs : list fclauseI) : list (list (ivar * Z)) :=
  let s := run_clauses flows cs in
  eqs s ++ map sum_row (sets_of (fc s)) ++
  map zero_row (filter (untouched_byname (flow_pairs cs)) flows).

Definition model_rows_byname (i : inst iseg) : list (list (ivar * Z)) :=
  expand_byname (flat_flows [] i) (flat_clauses [] i).

Definition check_case_byname (c : inst iseg * list (list (ivar * Z))) : bool :=
  same_multiset (map canon_row (model_rows_byname c.1)) (map canon_row c.2).

(* every array is connected all-or-none: a declared flow whose array name is touched is itself touched *)
Definition all_or_none (flows : list ivar) (P : list (ikey * ikey)) : Prop :=
  ∀ n, n ∈ flows → untouched P n → untouched_byname P n.

Lemma byname_untouched P n : untouched_byname P n → untouched P n.
Proof.
  unfold untouched_byname, untouched. intros H. eapply Forall_impl; [exact H|]. intros p [H1 H2].
  split; intros ->; [by apply H1|by apply H2].
Qed.

Lemma byname_members flows P n :
  all_or_none flows P → n ∈ filter (untouched_byname P) flows ↔ n ∈ flows ∧ untouched P n.
Proof.
  intros Han. rewrite elem_of_list_filter. split.
  - intros [Hu Hn]. split; [done|by apply byname_untouched].
  - intros [Hn Hu]. split; [by apply Han|done].
Qed.
