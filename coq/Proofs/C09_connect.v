(* C09 — proofs about Model/C09_connect.v.
   The run over the clauses and their variables folds connect_flow over the flow pairs, appends one
   row per potential pair and strikes the touched names from the zero-default list (`advances`).
   On maps that satisfy Closure.inv, connect_flow is Closure.merge, so the final flow map is
   Closure.run of the flow pairs and its sets are the closure classes of the mentioned keys.
   Over exact rationals (Qc) the emitted rows then have the solutions of flow_spec and pot_spec. *)
From stdpp Require Import gmap.
From Coq Require Import QArith Qcanon.
From PV Require Import Lib.Closure Model.C09_connect.
Close Scope Qc_scope.
Close Scope Q_scope.

Section ClosureFacts.
  Context `{Countable K}.

  Lemma inv_lookup (m : gmap K (gset K)) k S :
    inv m → m !! k = Some S → k ∈ S ∧ ∀ v, v ∈ S → m !! v = Some S.
  Proof.
    intros [Hr Hc] Hk.
    assert (HS : cls m k = S) by (unfold cls; by rewrite Hk).
    split; [rewrite <- HS; apply Hr|]. intros v Hv.
    rewrite <- HS in Hv. apply Hc in Hv. rewrite HS in Hv. unfold cls in Hv.
    destruct (m !! v) as [T|] eqn:E; simpl in Hv; [by rewrite Hv|].
    (* v absent: then S = {[v]} contains k, so k = v is absent too *)
    pose proof (Hr k) as Hkk. rewrite HS, <- Hv in Hkk.
    apply elem_of_singleton in Hkk as ->. by rewrite E in Hk.
  Qed.

  Lemma merge_is_Some (m : gmap K (gset K)) a b k :
    inv m → is_Some (merge m a b !! k) ↔ is_Some (m !! k) ∨ k = a ∨ k = b.
  Proof.
    intros Hi. unfold merge. rewrite relabel_lookup.
    assert (Hcls : ∀ x, k ∈ cls m x → is_Some (m !! k) ∨ k = x).
    { intros x. unfold cls. destruct (m !! x) as [S|] eqn:E; simpl.
      - intros Hk. left. rewrite (proj2 (inv_lookup m x S Hi E) k Hk). eauto.
      - intros ->%elem_of_singleton. by right. }
    case_decide as Hk; split; try eauto.
    - intros _. apply elem_of_union in Hk as [[?|?]%Hcls|[?|?]%Hcls]; auto.
    - intros [?|[->| ->]]; [done|destruct Hk..]; [apply elem_of_union_l|apply elem_of_union_r]; apply Hi.
  Qed.

  (* {[x]} moves past B *)
  Lemma union_interchange (A B : gset K) x y : A ∪ B ∪ {[x]} ∪ {[y]} = (A ∪ {[x]}) ∪ (B ∪ {[y]}).
  Proof.
    by rewrite (assoc_L (∪) (A ∪ {[x]})), <- (assoc_L (∪) A {[x]} B), (comm_L (∪) {[x]} B), (assoc_L (∪) A B).
  Qed.

  Lemma run_lookup_closure (P : list (K * K)) k S : run P !! k = Some S → ∀ v, v ∈ S ↔ eqv P k v.
  Proof. intros Hk v. rewrite <- run_closure. unfold cls. by rewrite Hk. Qed.
End ClosureFacts.

Section Proofs.
Context {Sg N : Type} `{Countable N} `{!Naming Sg N}.
Local Notation var := N.
Local Notation key := (N * bool)%type.
Local Notation cmapT := (gmap key (gset key)).
Local Notation row := (list (var * Z)).
Local Notation cvars := (list (Sg * kind)).
Local Notation fclause := ((var * bool) * (var * bool) * cvars)%type.

Definition flow_pairs_vars (L R : var * bool) (vars : cvars) : list (key * key) :=
  flat_map (fun v : Sg * kind =>
              match v.2 with
              | KFlow => [((ext L.1 v.1, L.2), (ext R.1 v.1, R.2))]
              | _ => []
              end) vars.
Definition flow_pairs (cs : list fclause) : list (key * key) :=
  flat_map (fun c : fclause => flow_pairs_vars c.1.1 c.1.2 c.2) cs.

Definition pot_pairs_vars (L R : var * bool) (vars : cvars) : list (var * var) :=
  flat_map (fun v : Sg * kind =>
              match v.2 with
              | KPot => [(ext L.1 v.1, ext R.1 v.1)]
              | _ => []
              end) vars.
Definition pot_pairs (cs : list fclause) : list (var * var) :=
  flat_map (fun c : fclause => pot_pairs_vars c.1.1 c.1.2 c.2) cs.

Definition cf_fold (P : list (key * key)) (m : cmapT) : cmapT :=
  fold_left (fun m p => connect_flow m p.1 p.2) P m.

Definition untouched (P : list (key * key)) (n : var) : Prop :=
  Forall (fun p : key * key => n ≠ p.1.1 ∧ n ≠ p.2.1) P.

Definition pot_rows (Q : list (var * var)) : list row := map (fun p => pot_row p.1 p.2) Q.

Lemma cf_fold_app P1 P2 m : cf_fold (P1 ++ P2) m = cf_fold P2 (cf_fold P1 m).
Proof. unfold cf_fold. by rewrite fold_left_app. Qed.

Definition advances (F : list (key * key)) (Q : list (var * var)) (s s' : st) : Prop :=
  fc s' = cf_fold F (fc s) ∧
  eqs s' = eqs s ++ pot_rows Q ∧
  ∀ n, n ∈ disc s' ↔ n ∈ disc s ∧ untouched F n.

Lemma advances_nil s : advances [] [] s s.
Proof.
  split; [done|]. split; [by rewrite app_nil_r|].
  intros n. split; [intros; split; [done|constructor]|by intros [? _]].
Qed.

Lemma advances_app F1 Q1 F2 Q2 s1 s2 s3 :
  advances F1 Q1 s1 s2 → advances F2 Q2 s2 s3 → advances (F1 ++ F2) (Q1 ++ Q2) s1 s3.
Proof.
  intros (Hf1 & He1 & Hd1) (Hf2 & He2 & Hd2). split; [|split].
  - by rewrite cf_fold_app, <- Hf1.
  - unfold pot_rows. by rewrite He2, He1, map_app, app_assoc.
  - intros n. unfold untouched. rewrite Hd2, Hd1, Forall_app. apply Logic.and_assoc.
Qed.

(* both loops of the run (over the clauses, over the variables of a clause) are this fold *)
Lemma advances_fold {A} (step : st → A → st) (f : A → list (key * key)) (q : A → list (var * var)) :
  (∀ s a, advances (flat_map f [a]) (flat_map q [a]) s (step s a)) →
  ∀ l s, advances (flat_map f l) (flat_map q l) s (fold_left step l s).
Proof.
  intros Hstep l. induction l as [|a l IH]; intros s; simpl; [apply advances_nil|].
  eapply advances_app; [|apply IH]. specialize (Hstep s a). simpl in Hstep. by rewrite !app_nil_r in Hstep.
Qed.

Lemma step_var_advances L R s v :
  advances (flow_pairs_vars L R [v]) (pot_pairs_vars L R [v]) s (step_var L R s v).
Proof.
  destruct v as [x []]; try apply advances_nil; unfold step_var; simpl.
  - destruct (advances_nil s) as (? & _ & ?). by split; [|split].
  - split; [done|]. split; [by rewrite app_nil_r|]. intros n.
    simpl. unfold untouched. split.
    + intros [Hd Hn]%elem_of_list_filter. split; [done|]. by apply Forall_singleton.
    + intros [Hn Hd]. apply elem_of_list_filter. split; [exact (Forall_inv Hd)|done].
Qed.

Lemma step_clause_advances s c : advances (flow_pairs [c]) (pot_pairs [c]) s (step_clause s c).
Proof.
  destruct c as [[L R] vars]. unfold flow_pairs, pot_pairs. simpl. rewrite !app_nil_r.
  apply (advances_fold (step_var L R)), step_var_advances.
Qed.

Lemma run_clauses_spec flows cs :
  advances (flow_pairs cs) (pot_pairs cs) (St ∅ flows []) (run_clauses flows cs).
Proof. apply (advances_fold step_clause), step_clause_advances. Qed.

Lemma eqs_run_clauses flows cs : eqs (run_clauses flows cs) = pot_rows (pot_pairs cs).
Proof. apply (proj1 (proj2 (run_clauses_spec flows cs))). Qed.

Lemma disc_run_clauses flows cs n :
  n ∈ disc (run_clauses flows cs) ↔ n ∈ flows ∧ untouched (flow_pairs cs) n.
Proof. apply (proj2 (proj2 (run_clauses_spec flows cs))). Qed.

Lemma cls_getset (m : cmapT) k : inv m → cls m k = getset m k ∪ {[k]}.
Proof.
  intros Hi. unfold cls, getset. destruct (m !! k) as [S|] eqn:E; simpl; [|by rewrite (left_id_L ∅ (∪))].
  symmetry. rewrite (comm_L (∪)). apply subseteq_union_1_L, singleton_subseteq_l, (inv_lookup m k S Hi E).
Qed.

Lemma connect_flow_merge (m : cmapT) l r : inv m → connect_flow m l r = merge m l r.
Proof.
  intros Hi. unfold connect_flow, merge. f_equal. rewrite !cls_getset by done. apply union_interchange.
Qed.

Lemma cf_fold_run P : cf_fold P ∅ = run P.
Proof.
  induction P as [|[a b] P IH] using rev_ind; [done|].
  rewrite cf_fold_app, run_snoc, IH. apply connect_flow_merge, run_inv.
Qed.

Lemma fc_run_clauses flows cs : fc (run_clauses flows cs) = run (flow_pairs cs).
Proof. rewrite <- cf_fold_run. apply (proj1 (run_clauses_spec flows cs)). Qed.

Definition mentioned (P : list (key * key)) (k : key) : Prop :=
  ∃ p, p ∈ P ∧ (k = p.1 ∨ k = p.2).

Lemma mentioned_snoc P a b k : mentioned (P ++ [(a, b)]) k ↔ mentioned P k ∨ k = a ∨ k = b.
Proof.
  unfold mentioned. split.
  - intros (p & [Hp| ->%elem_of_list_singleton]%elem_of_app & Hk); eauto.
  - intros [(p & Hp & Hk)|Hk]; [exists p|exists (a, b)]; (split; [|done]); apply elem_of_app.
    + by left.
    + right. apply elem_of_list_singleton. done.
Qed.

Lemma run_dom P k : is_Some (run P !! k) ↔ mentioned P k.
Proof.
  induction P as [|[a b] P IH] using rev_ind.
  - unfold run, mentioned. simpl. rewrite lookup_empty. split.
    + by intros [? ?].
    + intros (p & Hp & _). by apply elem_of_nil in Hp.
  - by rewrite run_snoc, merge_is_Some, IH, mentioned_snoc by apply run_inv.
Qed.

Lemma elem_of_sets_of (m : cmapT) S : S ∈ sets_of m ↔ ∃ k, m !! k = Some S.
Proof.
  unfold sets_of. rewrite elem_of_remove_dups, elem_of_list_fmap. split.
  - intros ([k S'] & -> & HkS%elem_of_map_to_list). eauto.
  - intros [k HkS]. exists (k, S). split; [done|]. by apply elem_of_map_to_list.
Qed.

Lemma sets_are_classes P S :
  S ∈ sets_of (run P) → ∃ k, mentioned P k ∧ ∀ v, v ∈ S ↔ eqv P k v.
Proof.
  intros [k Hk]%elem_of_sets_of. exists k. split; [apply run_dom; eauto|by apply run_lookup_closure].
Qed.

Lemma mentioned_has_set P k : mentioned P k → ∃ S, S ∈ sets_of (run P) ∧ ∀ v, v ∈ S ↔ eqv P k v.
Proof.
  intros [S HS]%run_dom. exists S. split; [apply elem_of_sets_of; eauto|by apply run_lookup_closure].
Qed.

Lemma sets_disjoint (P : list (key * key)) (S T : gset key) : S ∈ sets_of (run P) → T ∈ sets_of (run P) → S ≠ T → S ## T.
Proof.
  intros [k Hk]%elem_of_sets_of [k' Hk']%elem_of_sets_of Hne. apply elem_of_disjoint. intros v HvS HvT.
  apply (inv_lookup _ _ _ (run_inv P)) in Hk as [_ Hk], Hk' as [_ Hk'].
  specialize (Hk v HvS). specialize (Hk' v HvT). congruence.
Qed.

Lemma share_iff_eqv P a b :
  mentioned P a → (∃ S, S ∈ sets_of (run P) ∧ a ∈ S ∧ b ∈ S) ↔ eqv P a b.
Proof.
  intros Ha. split.
  - intros (S & (k & _ & HS)%sets_are_classes & HaS%HS & HbS%HS).
    by apply (eqv_trans _ _ k); [apply eqv_sym|].
  - intros Hab. destruct (mentioned_has_set P a Ha) as (S & HS & Hcl).
    exists S. split; [done|]. split; apply Hcl; [apply eqv_refl|done].
Qed.

Definition zq (z : Z) : Qc := Q2Qc (inject_Z z).

Fixpoint eval (ρ : var → Qc) (r : row) : Qc :=
  match r with
  | [] => 0%Qc
  | t :: r' => (zq t.2 * ρ t.1 + eval ρ r')%Qc
  end.

Definition sat (ρ : var → Qc) (rs : list row) : Prop := Forall (fun r => eval ρ r = 0%Qc) rs.

(* inside connectors count positive, outside connectors negative *)
Definition sgn (k : key) : Qc := if k.2 then 1%Qc else (-1)%Qc.

Fixpoint ssum (ρ : var → Qc) (l : list key) : Qc :=
  match l with
  | [] => 0%Qc
  | k :: l' => (sgn k * ρ k.1 + ssum ρ l')%Qc
  end.

Lemma sat_app ρ rs1 rs2 : sat ρ (rs1 ++ rs2) ↔ sat ρ rs1 ∧ sat ρ rs2.
Proof. apply Forall_app. Qed.

Lemma sat_map {A} ρ (f : A → row) l : sat ρ (map f l) ↔ ∀ x, x ∈ l → eval ρ (f x) = 0%Qc.
Proof. unfold sat. by rewrite Forall_fmap, Forall_forall. Qed.

Lemma sat_forallb ρ rs : sat ρ rs ↔ forallb (fun r => Qeq_bool (eval ρ r) 0) rs = true.
Proof.
  unfold sat. rewrite forallb_forall, Forall_forall.
  apply forall_proper. intros r. rewrite elem_of_list_In, Qeq_bool_iff.
  split; intros Hr Hin; [by rewrite (Hr Hin)|by apply Qc_is_canon, Hr].
Qed.

Lemma zq_1 : zq 1 = 1%Qc.
Proof. reflexivity. Qed.
Lemma zq_m1 : zq (-1) = (-1)%Qc.
Proof. reflexivity. Qed.

Lemma Qc_opp_zero (x : Qc) : (- x)%Qc = 0%Qc ↔ x = 0%Qc.
Proof.
  split; intros Hx.
  - assert (x = (- - x)%Qc) as -> by ring. rewrite Hx. ring.
  - rewrite Hx. ring.
Qed.

Lemma Qc_sub_zero (x y : Qc) : (x - y)%Qc = 0%Qc ↔ x = y.
Proof.
  split; intros Hx.
  - assert (x = (x - y) + y)%Qc as -> by ring. rewrite Hx. ring.
  - rewrite Hx. ring.
Qed.

Lemma ssum_perm ρ l l' : l ≡ₚ l' → ssum ρ l = ssum ρ l'.
Proof.
  induction 1 as [|x l l' _ IH|x y l|l l' l'' _ IH1 _ IH2]; simpl.
  - done.
  - by rewrite IH.
  - ring.
  - congruence.
Qed.

Lemma eval_signed ρ (l : list key) :
  eval ρ (map (fun k : key => (k.1, if k.2 then 1%Z else (-1)%Z)) l) = ssum ρ l.
Proof.
  induction l as [|[n [|]] l IH]; simpl; [done| |]; rewrite IH; reflexivity.
Qed.

Lemma eval_all_outside ρ (l : list key) :
  forallb (fun k : key => negb k.2) l = true →
  eval ρ (map (fun k : key => (k.1, 1%Z)) l) = (- ssum ρ l)%Qc.
Proof.
  induction l as [|[n [|]] l IH]; simpl; intros Hall.
  - ring.
  - done.
  - rewrite IH by done. unfold sgn. simpl. rewrite zq_1. ring.
Qed.

Lemma eval_sum_row ρ S : eval ρ (sum_row S) = 0%Qc ↔ ssum ρ (elements S) = 0%Qc.
Proof.
  unfold sum_row. destruct (forallb _ (elements S)) eqn:E.
  - rewrite eval_all_outside by done. apply Qc_opp_zero.
  - by rewrite eval_signed.
Qed.

Lemma eval_zero_row ρ n : eval ρ (zero_row n) = 0%Qc ↔ ρ n = 0%Qc.
Proof.
  unfold zero_row. simpl. rewrite zq_1.
  assert (1 * ρ n + 0 = ρ n)%Qc as -> by ring. done.
Qed.

Lemma eval_pot_row ρ a b : eval ρ (pot_row a b) = 0%Qc ↔ ρ a = ρ b.
Proof.
  unfold pot_row. simpl. rewrite zq_1, zq_m1.
  assert (1 * ρ a + (-1 * ρ b + 0) = ρ a - ρ b)%Qc as -> by ring. apply Qc_sub_zero.
Qed.

Definition enumerates (P : list (key * key)) (k : key) (l : list key) : Prop :=
  NoDup l ∧ ∀ v, v ∈ l ↔ eqv P k v.

Definition flow_spec (flows : list var) (P : list (key * key)) (ρ : var → Qc) : Prop :=
  (∀ k l, mentioned P k → enumerates P k l → ssum ρ l = 0%Qc) ∧
  (∀ n, n ∈ flows → (∀ k, mentioned P k → k.1 ≠ n) → ρ n = 0%Qc).

Definition pot_spec (Q : list (var * var)) (ρ : var → Qc) : Prop :=
  ∀ a b, eqv Q a b → ρ a = ρ b.

Lemma ssum_enumerates (ρ : var → Qc) (P : list (key * key)) (k : key) (l l' : list key) :
  enumerates P k l → enumerates P k l' → ssum ρ l = ssum ρ l'.
Proof.
  intros [Hnd Hl] [Hnd' Hl']. apply ssum_perm, NoDup_Permutation; [done..|].
  intros v. by rewrite Hl, Hl'.
Qed.

Lemma enumerates_elements (P : list (key * key)) (k : key) (S : gset key) :
  (∀ v, v ∈ S ↔ eqv P k v) → enumerates P k (elements S).
Proof. intros HS. split; [apply NoDup_elements|]. intros v. by rewrite elem_of_elements. Qed.

Lemma untouched_unmentioned P n : untouched P n ↔ ∀ k, mentioned P k → k.1 ≠ n.
Proof.
  unfold untouched, mentioned. split.
  - intros Hall k (p & Hp & Hk) <-. destruct (proj1 (Forall_forall _ _) Hall p Hp) as [H1 H2].
    destruct Hk as [->| ->]; [by apply H1|by apply H2].
  - intros Hall. apply Forall_forall. intros p Hp. split; intros ->.
    + by apply (Hall p.1); [exists p; split; [done|by left]|].
    + by apply (Hall p.2); [exists p; split; [done|by right]|].
Qed.

Lemma sat_flow_rows P flows ρ (zs : list var) :
  (∀ n, n ∈ zs ↔ n ∈ flows ∧ untouched P n) →
  sat ρ (map sum_row (sets_of (run P)) ++ map zero_row zs) ↔ flow_spec flows P ρ.
Proof.
  intros Hzs. rewrite sat_app, !sat_map. split; intros [Hsets Hz]; split.
  - intros k l Hk Hl. destruct (mentioned_has_set P k Hk) as (S & HS & Hcl).
    rewrite (ssum_enumerates ρ P k l (elements S) Hl (enumerates_elements P k S Hcl)).
    by apply eval_sum_row, Hsets.
  - intros n Hn Hun. apply eval_zero_row, Hz, Hzs. by rewrite untouched_unmentioned.
  - intros S (k & Hk & Hcl)%sets_are_classes.
    by apply eval_sum_row, (Hsets k), enumerates_elements.
  - intros n [Hn Hun]%Hzs. apply eval_zero_row, Hz; [done|]. by apply untouched_unmentioned.
Qed.

Lemma sat_pot_rows Q ρ : sat ρ (pot_rows Q) ↔ pot_spec Q ρ.
Proof.
  unfold pot_rows, pot_spec. rewrite sat_map. split.
  - intros Hall a b. induction 1 as [x y Hxy|x|x y _ IH|x y z _ IH1 _ IH2].
    + apply (eval_pot_row ρ x y). apply (Hall (x, y) Hxy).
    + done.
    + done.
    + congruence.
  - intros Hspec [a b] Hab. simpl. apply eval_pot_row. apply Hspec. by apply eqv_pair.
Qed.

Lemma sat_expand_rows flows cs ρ (zs : list var) :
  (∀ n, n ∈ zs ↔ n ∈ flows ∧ untouched (flow_pairs cs) n) →
  let s := run_clauses flows cs in
  sat ρ (eqs s ++ map sum_row (sets_of (fc s)) ++ map zero_row zs) ↔
  pot_spec (pot_pairs cs) ρ ∧ flow_spec flows (flow_pairs cs) ρ.
Proof. intros Hzs s. unfold s. by rewrite sat_app, eqs_run_clauses, sat_pot_rows, fc_run_clauses, sat_flow_rows. Qed.

Theorem expand_correct flows cs ρ :
  sat ρ (expand flows cs) ↔ pot_spec (pot_pairs cs) ρ ∧ flow_spec flows (flow_pairs cs) ρ.
Proof. apply sat_expand_rows, disc_run_clauses. Qed.
End Proofs.
