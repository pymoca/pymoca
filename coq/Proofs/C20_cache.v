(* C20 — proofs over Model/C20_cache.v: the cache invariant is inductive over every history,
   hence every Transfer returns the compile of the current sources/options/version. *)
From Coq Require Import ZArith List Bool Arith Lia.
From PV Require Import Model.C20_cache.
Import ListNotations.

Lemma get_set_other k k' v o : k <> k' -> get k (set k' v o) = get k o.
Proof.
  intros N. apply Nat.eqb_neq in N.
  induction o as [|[k0 v0] o IH]; simpl; [rewrite N; reflexivity|].
  destruct (Nat.eqb k' k0) eqn:E; simpl; [|rewrite IH; reflexivity].
  apply Nat.eqb_eq in E. subst k0. rewrite N. reflexivity.
Qed.

Lemma effective_get k o : k <> K_cache -> k <> K_expand_mx -> get k (effective o) = get k o.
Proof.
  intros N1 N2. unfold effective. set (o1 := if flag K_cache o && flag K_codegen o then _ else o).
  assert (E1 : get k o1 = get k o)
    by (unfold o1; destruct (_ && _); [apply get_set_other; exact N1 | reflexivity]).
  clearbody o1. destruct (_ && _); [rewrite get_set_other by exact N2|]; exact E1.
Qed.

Lemma effective_flag k o : k <> K_cache -> k <> K_expand_mx -> flag k (effective o) = flag k o.
Proof. intros. unfold flag. rewrite effective_get by assumption. reflexivity. Qed.

Lemma get_strip g k o : existsb (Nat.eqb k) (excl g) = false -> get k (strip g o) = get k o.
Proof.
  intros H. unfold strip. induction o as [|[k0 v0] o IH]; simpl; [reflexivity|].
  destruct (Nat.eqb k k0) eqn:E.
  - apply Nat.eqb_eq in E; subst k0.
    rewrite H. simpl. rewrite Nat.eqb_refl. reflexivity.
  - destruct (negb (existsb (Nat.eqb k0) (excl g))); simpl; [rewrite E|]; exact IH.
Qed.

Lemma list_eqb_eq {A} (e : A -> A -> bool) :
  (forall x y, e x y = true -> x = y) -> forall a b, list_eqb e a b = true -> a = b.
Proof.
  intros He a. induction a as [|x a IH]; intros [|y b] H; simpl in H; try discriminate; [reflexivity|].
  apply andb_true_iff in H as [H1 H2]. f_equal; [apply He; exact H1 | apply IH; exact H2].
Qed.

Lemma opts_eqb_eq a b : opts_eqb a b = true -> a = b.
Proof.
  apply list_eqb_eq. intros [k v] [k' v'] H. simpl in H.
  apply andb_true_iff in H as [H1 H2]. apply Nat.eqb_eq in H1.
  apply (list_eqb_eq Nat.eqb) in H2; [subst; reflexivity|]. intros x y; apply Nat.eqb_eq.
Qed.

(* `ev g cm snap f`: f is snap with some files rewritten in place and some files appended, every
   rewritten or appended file being "newer than cm" in the sense of the comparison the code uses
   (strictly later under `>`, not earlier under `>=`) *)
Inductive ev (g : cfg) (cm : Z) : fs -> fs -> Prop :=
| ev_nil tail : Forall (fun e => newer g (fst (snd e)) cm = true) tail -> ev g cm [] tail
| ev_same x s f : ev g cm s f -> ev g cm (x :: s) (x :: f)
| ev_chg p v w s f : newer g (fst w) cm = true -> ev g cm s f -> ev g cm ((p, v) :: s) ((p, w) :: f).

Lemma ev_refl g cm s : ev g cm s s.
Proof. induction s; [apply ev_nil; constructor | apply ev_same; assumption]. Qed.

Lemma Forall_upd (Q : Z * nat -> Prop) p v t :
  Q v -> Forall (fun e => Q (snd e)) t -> Forall (fun e => Q (snd e)) (upd p v t).
Proof.
  intros Hv H. induction H as [|[q w] t Hx Ht IH]; simpl.
  - constructor; [exact Hv | constructor].
  - destruct (path_eqb p q); constructor; first [assumption | exact Hv].
Qed.

Lemma ev_upd g cm s f p v : newer g (fst v) cm = true -> ev g cm s f -> ev g cm s (upd p v f).
Proof.
  intros Hv H. induction H as [tail Ht | [q w] s f H IH | q u w s f Hw H IH]; simpl.
  - apply ev_nil. apply (Forall_upd (fun w => newer g (fst w) cm = true)); assumption.
  - destruct (path_eqb p q); [apply ev_chg; assumption | apply ev_same; exact IH].
  - destruct (path_eqb p q); apply ev_chg; assumption.
Qed.

Lemma newer_gt g m cm : (m > cm)%Z -> newer g m cm = true.
Proof. intros H. unfold newer. destruct (strict g); [apply Z.gtb_lt | apply Z.geb_le]; lia. Qed.

Lemma ev_none_newer g cm s f :
  ev g cm s f -> Forall (fun e => newer g (fst (snd e)) cm = false) f -> s = f.
Proof.
  intros H. induction H as [tail Ht | x s f H IH | q u w s f Hw H IH]; intros N.
  - destruct Ht as [|e t He _]; [reflexivity|]. apply Forall_inv in N. congruence.
  - f_equal. exact (IH (Forall_inv_tail N)).
  - apply Forall_inv in N. cbn [fst snd] in N. congruence.
Qed.

(* restriction of a tree to the folders in view (library_folders = L) *)
Definition inL (L : val) (p : path) : bool := existsb (Nat.eqb (fst p)) (0 :: L).
Definition vf (L : val) (f : fs) : fs := filter (fun e => inL L (fst e)) f.

Lemma path_eqb_inL L p q : path_eqb p q = true -> inL L q = inL L p.
Proof.
  unfold path_eqb, inL. intros H. apply andb_true_iff in H as [H _]. apply Nat.eqb_eq in H. rewrite H. reflexivity.
Qed.

Lemma vf_upd L p v f : vf L (upd p v f) = if inL L p then upd p v (vf L f) else vf L f.
Proof.
  induction f as [|[q w] f IH]; simpl; [destruct (inL L p); reflexivity|].
  destruct (path_eqb p q) eqn:E; simpl.
  - rewrite (path_eqb_inL L p q E). destruct (inL L p); simpl; [rewrite E|]; reflexivity.
  - rewrite IH. destruct (inL L q), (inL L p); simpl; rewrite ?E; reflexivity.
Qed.

Lemma vf_del_out L p f : inL L p = false -> vf L (del p f) = vf L f.
Proof.
  intros Hp. induction f as [|[q w] f IH]; simpl; [reflexivity|].
  destruct (path_eqb p q) eqn:E; simpl.
  - rewrite (path_eqb_inL L p q E), Hp. exact IH.
  - destruct (inL L q); simpl; [rewrite IH; reflexivity | exact IH].
Qed.

Lemma vf_ren_out L p q f : inL L p = false -> inL L q = false -> vf L (ren p q f) = vf L f.
Proof.
  intros Hp Hq. unfold ren. destruct (lookup p f); [|reflexivity].
  rewrite vf_upd, Hq. apply vf_del_out. exact Hp.
Qed.

Lemma view_vf o f : view o f = map (fun e => (fst e, snd (snd e))) (vf (get K_library_folders o) f).
Proof. reflexivity. Qed.

Lemma mtime_ok_vf g o cm f :
  mtime_ok g o cm f = true ->
  Forall (fun e => newer g (fst (snd e)) cm = false) (vf (get K_library_folders o) f).
Proof.
  unfold mtime_ok, vf. rewrite forallb_forall, Forall_forall. intros H e He.
  apply filter_In in He as [Hin Hv]. specialize (H e Hin).
  change (inL (get K_library_folders o) (fst e)) with (inview o (fst e)) in Hv. rewrite Hv in H.
  apply negb_true_iff. exact H.
Qed.

Definition cfg_ok (g : cfg) : Prop :=
  vcheck g = true /\ forall k, In k (excl g) -> k = K_library_folders \/ k = K_verbose.

Lemma cfg_okb_ok g : cfg_okb g = true -> cfg_ok g.
Proof.
  unfold cfg_okb, cfg_ok. intros H. apply andb_true_iff in H as [H1 H2]. split; [exact H1|].
  intros k Hk. rewrite forallb_forall in H2. specialize (H2 k Hk).
  apply orb_true_iff in H2 as [E|E]; apply Nat.eqb_eq in E; auto.
Qed.

(* equality of compile results up to the `verbose` option *)
Definition res_equiv (r r' : cres) : Prop :=
  fst (fst r) = fst (fst r') /\ snd r = snd r' /\
  forall k, k <> K_verbose -> get k (snd (fst r)) = get k (snd (fst r')).

Lemma res_equiv_refl r : res_equiv r r.
Proof. repeat split. Qed.

(* what the property demands of one transfer_model call made in state s *)
Definition out_ok (fails : cres -> bool) (s : state) (r : out) : Prop :=
  match r with
  | Failed => fails (ideal s) = true              (* compiling the current sources raises *)
  | Served _ m built =>
      res_equiv m (ideal s) /\
      match built with Some n => n = osn s | None => True end   (* shared libraries are for this platform *)
  end.

Definition Inv (g : cfg) (L : val) (s : state) : Prop :=
  get K_library_folders (copts s) = L /\ flag K_mtime_check (copts s) = true /\
  match cch s with
  | None => True
  | Some c =>
      get K_library_folders (c_opts c) = L /\
      ev g (c_mtime c) (vf L (c_snap c)) (vf L (files s)) /\
      c_model c = (view (c_opts c) (c_snap c), c_opts c, c_version c) /\
      c_libs c = flag K_codegen (c_opts c) /\
      (c_libs c = true -> libs s = Some (c_model c, c_os c))
  end.

(* The property's quantifier.  A write is "newer than the cache file" in the sense of the coded
   comparison (`newer`: strictly later under >, not earlier under >=; see legal_gt below for the
   property's own "strictly later").  Carving hypothesis: library_folders stays L.  Opt-out
   excluded: mtime_check stays on.  Outside the property's letter: deleting or renaming a source
   in the model folder or a library folder in use (elsewhere it is allowed).
   L = None (the refutation only): library_folders may change, no Delete or Rename is legal. *)
Definition legal_op (g : cfg) (L : option val) (s : state) (a : op) : Prop :=
  match a with
  | Edit _ m _ | Add _ m _ => match cch s with Some c => newer g m (c_mtime c) = true | None => True end
  | SetOptions o =>
      flag K_mtime_check o = true /\
      match L with Some l => get K_library_folders o = l | None => True end
  | Delete p => match L with Some l => inL l p = false | None => False end
  | Rename p q => match L with Some l => inL l p = false /\ inL l q = false | None => False end
  | _ => True
  end.

Fixpoint legal (g : cfg) (fails : cres -> bool) (L : option val) (s : state) (ops : list op) : Prop :=
  match ops with
  | [] => True
  | a :: rest => legal_op g L s a /\ legal g fails L (fst (step g fails s a)) rest
  end.

(* the same with the property's literal grant: every write strictly later than the cache file
   (the arms of legal_op reached here ignore the cfg) *)
Definition legal_op_gt (L : option val) (s : state) (a : op) : Prop :=
  match a with
  | Edit _ m _ | Add _ m _ => match cch s with Some c => (m > c_mtime c)%Z | None => True end
  | _ => legal_op (Cfg true [] true) L s a
  end.

Fixpoint legal_gt (g : cfg) (fails : cres -> bool) (L : option val) (s : state) (ops : list op) : Prop :=
  match ops with
  | [] => True
  | a :: rest => legal_op_gt L s a /\ legal_gt g fails L (fst (step g fails s a)) rest
  end.

Lemma legal_gt_legal g fails L s ops : legal_gt g fails L s ops -> legal g fails L s ops.
Proof.
  revert s. induction ops as [|a ops IH]; intros s H; simpl in *; [exact I|].
  destruct H as [H1 H2]. split; [|apply IH; exact H2].
  destruct a; simpl in *; try exact H1; (destruct (cch s); [apply newer_gt; exact H1 | exact I]).
Qed.

Lemma inv_files g L s f :
  Inv g L s -> vf L f = vf L (files s) -> Inv g L (with_files s f).
Proof.
  intros (I1 & I2 & I3) E. split; [exact I1 | split; [exact I2|]]. simpl.
  destruct (cch s) as [c|]; [|exact I]. rewrite E. exact I3.
Qed.

Lemma inv_upd g L s p m c :
  Inv g L s -> match cch s with Some ch => newer g m (c_mtime ch) = true | None => True end ->
  Inv g L (with_files s (upd p (m, c) (files s))).
Proof.
  intros (I1 & I2 & I3) Hm. split; [exact I1 | split; [exact I2|]]. simpl.
  destruct (cch s) as [ch|]; [|exact I]. destruct I3 as (J1 & J2 & J3).
  split; [exact J1 | split; [|exact J3]].
  rewrite vf_upd. destruct (inL L p); [apply ev_upd; assumption | exact J2].
Qed.

(* the state after save_model: the cache file, and in codegen mode the libraries, come from [ideal s] *)
Definition saved (s : state) (now : Z) : state :=
  let o := effective (copts s) in
  State (files s) (copts s) (ver s) (osn s)
        (if flag K_codegen o then Some (ideal s, osn s) else libs s)
        (Some (Cache now (ver s) o (osn s) (flag K_codegen o) (ideal s) (files s))).

Inductive transfer_spec (g : cfg) (fails : cres -> bool) (s : state) (now : Z) : state * out -> Prop :=
| tr_cached c : cch s = Some c -> load_ok g s (effective (copts s)) c = true ->
                transfer_spec g fails s now (s, loaded s c)
| tr_failed : fails (ideal s) = true -> transfer_spec g fails s now (s, Failed)
| tr_fresh s' : s' = s \/ s' = saved s now -> transfer_spec g fails s now (s', Served false (ideal s) None).

Lemma transfer_cases g fails s now : transfer_spec g fails s now (transfer g fails s now).
Proof.
  unfold transfer. change (compile s (effective (copts s))) with (ideal s). cbv zeta.
  set (recompile := if fails (ideal s) then (s, Failed) else _).
  assert (Rec : transfer_spec g fails s now recompile).
  { unfold recompile. destruct (fails (ideal s)) eqn:F; [apply tr_failed; exact F|].
    replace (if flag K_codegen _ then _ else _) with (saved s now, Served false (ideal s) None)
      by (unfold saved; destruct (flag K_codegen _); reflexivity).
    apply tr_fresh; auto. }
  clearbody recompile.
  destruct (_ || _).
  - destruct (cch s) as [c|] eqn:Ec; [|exact Rec].
    destruct (load_ok g s _ c) eqn:Lk; [|exact Rec]. apply tr_cached; assumption.
  - destruct (fails (ideal s)) eqn:F; [apply tr_failed; exact F | apply tr_fresh; auto].
Qed.

Lemma saved_inv g L s now : Inv g L s -> Inv g L (saved s now).
Proof.
  intros (I1 & I2 & _). split; [exact I1 | split; [exact I2|]]. cbn.
  split; [rewrite effective_get by discriminate; exact I1|].
  split; [apply ev_refl|]. split; [reflexivity|]. split; [reflexivity|].
  intros ->. reflexivity.
Qed.

Lemma step_inv g fails L s a : Inv g L s -> legal_op g (Some L) s a -> Inv g L (fst (step g fails s a)).
Proof.
  intros I0 Hl.
  destruct a as [p m c | p m c | o | v | now | p | p q | n]; cbn [step fst legal_op] in *.
  - apply inv_upd; assumption.
  - apply inv_upd; assumption.
  - destruct I0 as (_ & _ & I3), Hl as [H1 H2]. repeat split; assumption.
  - exact I0.
  - destruct (transfer_cases g fails s now) as [c _ _ | _ | s' [->| ->]];
      [exact I0 | exact I0 | exact I0 | apply saved_inv; exact I0].
  - apply inv_files; [exact I0 | apply vf_del_out; exact Hl].
  - destruct Hl as [Hp Hq]. apply inv_files; [exact I0 | apply vf_ren_out; assumption].
  - exact I0.
Qed.

Lemma cached_ok g fails L s c :
  cfg_ok g -> Inv g L s -> cch s = Some c -> load_ok g s (effective (copts s)) c = true ->
  out_ok fails s (loaded s c).
Proof.
  intros [Gv Ge] (I1 & I2 & I3) Ec LK. rewrite Ec in I3. destruct I3 as (J1 & J2 & J3 & J4 & J5).
  set (o := effective (copts s)) in *.
  assert (Lo : get K_library_folders o = L) by (unfold o; rewrite effective_get by discriminate; exact I1).
  unfold load_ok in LK. apply andb_true_iff in LK as [LK LK4].
  apply andb_true_iff in LK as [LK LK3]. apply andb_true_iff in LK as [LK1 LK2].
  unfold o in LK1 at 1. rewrite effective_flag, I2 in LK1 by discriminate.
  rewrite Gv in LK2. apply Nat.eqb_eq in LK2. apply opts_eqb_eq in LK3.
  (* options not excluded are compared; of the excluded ones library_folders is L on both sides *)
  assert (Agree : forall k, k <> K_verbose -> get k (c_opts c) = get k o).
  { intros k Nk. destruct (existsb (Nat.eqb k) (excl g)) eqn:Ex.
    - apply existsb_exists in Ex as (k' & Hin & Hk). apply Nat.eqb_eq in Hk. subst k'.
      destruct (Ge k Hin) as [E|E]; [subst k; congruence | contradiction].
    - rewrite <- (get_strip g k (c_opts c) Ex), <- (get_strip g k o Ex), LK3. reflexivity. }
  assert (Eq : res_equiv (c_model c) (ideal s)).
  { rewrite J3. split; [|split; [exact LK2 | exact Agree]]. cbn [fst snd ideal compile]. fold o.
    rewrite !view_vf, J1, Lo. f_equal.
    apply (ev_none_newer g (c_mtime c)); [exact J2|]. rewrite <- Lo. apply mtime_ok_vf, LK1. }
  unfold loaded. destruct (c_libs c) eqn:Cl; [|split; [exact Eq | exact I]].
  rewrite (J5 eq_refl). split; [exact Eq|].
  (* written in codegen mode, so library_os was compared *)
  unfold flag in LK4. rewrite <- (Agree K_codegen) in LK4 by discriminate. fold (flag K_codegen (c_opts c)) in LK4.
  rewrite <- J4 in LK4. apply Nat.eqb_eq in LK4. exact LK4.
Qed.

Lemma step_out g fails L s a r :
  cfg_ok g -> Inv g L s -> snd (step g fails s a) = Some r -> out_ok fails s r.
Proof.
  intros G I0 E. destruct a as [| | | |now| | |]; try discriminate E. cbn [step] in E.
  destruct (transfer_cases g fails s now) as [c Ec Lk | F | s' _]; injection E as <-.
  - exact (cached_ok g fails L s c G I0 Ec Lk).
  - exact F.
  - split; [apply res_equiv_refl | exact I].
Qed.

Lemma trace_inv g fails L ops : forall s,
  Inv g L s -> legal g fails (Some L) s ops ->
  Inv g L (final g fails s ops) /\
  forall s1 a r, In (s1, a, r) (run g fails s ops) -> Inv g L s1 /\ r = snd (step g fails s1 a).
Proof.
  induction ops as [|a ops IH]; intros s I0 Hl; [split; [exact I0 | intros ? ? ? []]|].
  destruct Hl as [Hl1 Hl2]. pose proof (step_inv g fails L s a I0 Hl1) as I1.
  destruct (IH _ I1 Hl2) as [IHf IHr]. split; [exact IHf|].
  intros s1 a1 r Hin. cbn [run] in Hin. destruct (step g fails s a) as [s' r0] eqn:E.
  destruct Hin as [Hin|Hin]; [|exact (IHr _ _ _ Hin)].
  injection Hin as <- <- <-. rewrite E. auto.
Qed.

Theorem fresh_from g fails L s ops :
  cfg_ok g -> Inv g L s -> legal g fails (Some L) s ops ->
  forall s1 a r, In (s1, a, Some r) (run g fails s ops) -> out_ok fails s1 r.
Proof.
  intros G I0 Hl s1 a r Hin. destruct (proj2 (trace_inv g fails L ops s I0 Hl) _ _ _ Hin) as [I1 E].
  exact (step_out g fails L s1 a r G I1 (eq_sym E)).
Qed.

Lemma inv_init g f0 o0 v0 n0 l0 : flag K_mtime_check o0 = true -> Inv g (get K_library_folders o0) (State f0 o0 v0 n0 l0 None).
Proof. intros F. repeat split; simpl; auto. Qed.

(* writes strictly later than the cache file, as the property grants *)
Theorem fresh g fails f0 o0 v0 n0 l0 ops :
  cfg_ok g -> flag K_mtime_check o0 = true ->
  legal_gt g fails (Some (get K_library_folders o0)) (State f0 o0 v0 n0 l0 None) ops ->
  forall s1 a r, In (s1, a, Some r) (run g fails (State f0 o0 v0 n0 l0 None) ops) -> out_ok fails s1 r.
Proof.
  intros G F H. apply (fresh_from g fails (get K_library_folders o0));
    [exact G | apply inv_init; exact F | apply legal_gt_legal; exact H].
Qed.

Definition g_now : cfg := Cfg true [K_library_folders] true.     (* strict = true: the comparison is > *)
Definition g_ge : cfg := Cfg false [K_library_folders] true.     (* the same with >= *)
Definition o_lib (l : list nat) : opts :=
  [(K_library_folders, l); (K_verbose, [0]); (2, [1]); (K_mtime_check, [1]); (K_cache, [1]);
   (K_codegen, [0]); (K_expand_mx, [0])].
Definition o_cg (l : list nat) : opts := set K_codegen [1] (set K_cache [0] (o_lib l)).
Definition f_two : fs := [((0, 0), (10%Z, 1)); ((1, 0), (10%Z, 2)); ((2, 0), (10%Z, 3))].
Definition s_two : state := State f_two (o_lib [1]) 1 0 None None.
Definition nofail : cres -> bool := fun _ => false.

Definition stale (g : cfg) (s0 : state) (h : list op) : Prop :=
  exists s1 now r b, In (s1, Transfer now, Some (Served true r b)) (run g nofail s0 h) /\
                     fst (fst r) <> fst (fst (ideal s1)).

Definition srcs_dec (a b : list (path * nat)) : {a = b} + {a <> b}.
Proof. apply list_eq_dec. decide equality; [apply Nat.eq_dec | decide equality; apply Nat.eq_dec]. Defined.

Definition staleb (g : cfg) (s0 : state) (h : list op) : bool :=
  existsb (fun e => match e with
                    | (s1, Transfer _, Some (Served true r _)) =>
                        if srcs_dec (fst (fst r)) (fst (fst (ideal s1))) then false else true
                    | _ => false
                    end) (run g nofail s0 h).

Lemma staleb_stale g s0 h : staleb g s0 h = true -> stale g s0 h.
Proof.
  intros H. apply existsb_exists in H as ([[s1 a] r] & Hin & H).
  destruct a as [| | | |now| | |]; try discriminate H. destruct r as [[|[] r b]|]; try discriminate H.
  destruct (srcs_dec _ _) as [|N]; [discriminate H|]. exists s1, now, r, b. split; assumption.
Qed.

(* library_folders changes: legal in every other respect, stale sources served *)
Definition h_lib : list op := [Transfer 20%Z; SetOptions (o_lib [2]); Transfer 30%Z].

(* deleting / renaming a source in use (outside the property's letter): the stale cache is served *)
Definition h_del : list op := [Transfer 20%Z; Delete (1, 0); Transfer 30%Z].
Definition h_ren : list op := [Transfer 20%Z; Rename (2, 0) (0, 1); Transfer 30%Z].

(* a write whose mtime EQUALS the cache file's: breaks the statement under >, is covered under >= *)
Definition h_eq : list op := [Transfer 20%Z; Edit (0, 0) 20%Z 4; Transfer 30%Z].

(* non-vacuity: a legal history with an edit, an addition in a library folder, a deletion and a
   rename outside the folders in use, an option change and a version change; then codegen mode with
   a platform change *)
Definition h_ok : list op :=
  [Transfer 20%Z; Edit (0, 0) 21%Z 4; Transfer 30%Z; Add (1, 1) 31%Z 5; Transfer 40%Z;
   Delete (2, 0); Rename (3, 0) (2, 1);
   SetOptions (set 9 [1] (o_lib [1])); Transfer 50%Z; SetVersion 2; Transfer 60%Z; Transfer 70%Z;
   SetOptions (o_cg [1]); Transfer 80%Z; Transfer 90%Z; SetOS 1; Transfer 100%Z; Transfer 110%Z].

Definition srcs4 : list (path * nat) := [((0,0),4); ((1,0),2); ((1,1),5)].
Definition o_a := set K_expand_mx [1] (o_lib [1]).
Definition o_b := set K_expand_mx [1] (set 9 [1] (o_lib [1])).
