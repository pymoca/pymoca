(* C22, default options: the list _post_checks tests durations against is exactly the categories of the
   property; every delay call appends one record, in post-order. *)
From Coq Require Import ZArith List Bool Arith Lia.
From PV Require Import Model.C22_delay.
Import ListNotations.

Definition declared (m : model) (v : nat) (k : vkind) : Prop :=
  exists d, In d (m_decls m) /\ d_id d = v /\ d_kind d = k.
Definition is_state (m : model) (v : nat) : Prop := declared m v KPlain /\ In v (der_refs m).
Definition is_alg (m : model) (v : nat) : Prop := declared m v KPlain /\ ~ In v (der_refs m).
Definition is_input (m : model) (v : nat) (f : bool) : Prop := declared m v (KInput f).
Definition is_delay_input (m : model) (v : nat) : Prop := In v (delay_states m).

(* time, a state, a derivative, an algebraic variable, a non-fixed input (delayed-state inputs included) *)
Definition bad_sym (m : model) (s : sym) : Prop :=
  s = STime \/
  (exists v, s = SVar v /\ (is_state m v \/ is_alg m v \/ is_input m v false \/ is_delay_input m v)) \/
  (exists v, s = SDer v /\ is_state m v).

(* a constant, a parameter or a fixed input *)
Definition good_sym (m : model) (s : sym) : Prop :=
  exists v, s = SVar v /\ (declared m v KConst \/ declared m v KParam \/ is_input m v true).

Lemma sym_eqb_eq a b : sym_eqb a b = true <-> a = b.
Proof. destruct a, b; simpl; rewrite ?Nat.eqb_eq; split; congruence. Qed.

Lemma existsb_eqb_In {A} (eqb : A -> A -> bool) x l :
  (forall a b, eqb a b = true <-> a = b) -> (existsb (eqb x) l = true <-> In x l).
Proof.
  intro H. rewrite existsb_exists. split.
  - intros [y [Hy He]]. apply H in He. subst. exact Hy.
  - intro Hx. exists x. split; [exact Hx | apply H; reflexivity].
Qed.

Lemma mem_sym_In s l : mem_sym s l = true <-> In s l.
Proof. exact (existsb_eqb_In sym_eqb s l sym_eqb_eq). Qed.

Lemma mem_nat_In n l : mem_nat n l = true <-> In n l.
Proof. exact (existsb_eqb_In Nat.eqb n l Nat.eqb_eq). Qed.

Lemma forallb_false_iff {A} (f : A -> bool) l :
  forallb f l = false <-> exists x, In x l /\ f x = false.
Proof.
  induction l as [|a l IH]; simpl.
  - split; [discriminate | intros [x [[] _]]].
  - rewrite andb_false_iff, IH. split.
    + intros [H | [x [Hx Hf]]]; [exists a; auto | exists x; auto].
    + intros [x [[<- | Hx] Hf]]; [left; exact Hf | right; exists x; auto].
Qed.

Lemma durs_ok_false_iff (bad : list sym) (P : sym -> Prop) (l : list drec) :
  (forall s, In s bad <-> P s) ->
  (forallb (fun r => negb (existsb (fun s => mem_sym s bad) (deps (dr_dur r)))) l = false <->
   exists r s, In r l /\ In s (deps (dr_dur r)) /\ P s).
Proof.
  intro HP. rewrite forallb_false_iff. split.
  - intros [r [Hr Hd]]. apply negb_false_iff, existsb_exists in Hd.
    destruct Hd as [s [Hs Hm]]. apply mem_sym_In, HP in Hm. exists r, s. auto.
  - intros [r [s [Hr [Hs Hd]]]]. exists r. split; [exact Hr|].
    apply negb_false_iff, existsb_exists. exists s. split; [exact Hs | apply mem_sym_In, HP; exact Hd].
Qed.

Lemma is_plain_iff d : is_plain d = true <-> d_kind d = KPlain.
Proof. unfold is_plain. destruct (d_kind d); split; intro H; try discriminate; reflexivity. Qed.

Lemma in_plain_filter m (p : nat -> bool) v :
  In v (map d_id (filter (fun d => is_plain d && p (d_id d)) (m_decls m))) <->
  declared m v KPlain /\ p v = true.
Proof.
  unfold declared. rewrite in_map_iff. split.
  - intros [d [<- Hf]]. apply filter_In in Hf. destruct Hf as [Hd Hb].
    apply andb_true_iff in Hb. destruct Hb as [Hp Hv]. apply is_plain_iff in Hp. eauto.
  - intros [[d [Hd [<- Hk]]] Hv]. exists d. split; [reflexivity|].
    apply filter_In. split; [exact Hd|]. apply andb_true_iff. split; [apply is_plain_iff; exact Hk | exact Hv].
Qed.

Lemma in_states m v : In v (states m) <-> is_state m v.
Proof.
  unfold is_state. rewrite <- (mem_nat_In v (der_refs m)).
  exact (in_plain_filter m (fun v => mem_nat v (der_refs m)) v).
Qed.

Lemma in_alg m v : In v (alg_states m) <-> is_alg m v.
Proof.
  unfold is_alg. rewrite <- (mem_nat_In v (der_refs m)), not_true_iff_false, <- negb_true_iff.
  exact (in_plain_filter m (fun v => negb (mem_nat v (der_refs m))) v).
Qed.

Lemma in_inputs m v f :
  In (v, f) (inputs m) <-> (is_delay_input m v /\ f = false) \/ is_input m v f.
Proof.
  unfold inputs, is_delay_input, is_input, declared.
  rewrite in_app_iff, in_map_iff, in_flat_map. split.
  - intros [[x [Hx Hi]] | [d [Hd Hi]]].
    + inversion Hx; subst. left; auto.
    + right. exists d. destruct (d_kind d) eqn:E; simpl in Hi; try contradiction.
      destruct Hi as [Hi|[]]. inversion Hi; subst. auto.
  - intros [[Hi ->] | [d [Hd [Hid Hk]]]].
    + left. exists v. auto.
    + right. exists d. split; [exact Hd|]. rewrite Hk. simpl. left. rewrite Hid. reflexivity.
Qed.

Lemma in_disallowed_list (sts algs : list nat) (ins : list (nat * bool)) (is_st is_al is_in : nat -> Prop) s :
  (forall v, In v sts <-> is_st v) -> (forall v, In v algs <-> is_al v) ->
  (forall v, In (v, false) ins <-> is_in v) ->
  (In s ([STime] ++ map SVar sts ++ map SDer sts ++ map SVar algs ++
         map (fun x => SVar (fst x)) (filter (fun x => negb (snd x)) ins)) <->
   s = STime \/
   (exists v, s = SVar v /\ (is_st v \/ is_al v \/ is_in v)) \/
   (exists v, s = SDer v /\ is_st v)).
Proof.
  intros HS HA HI. split.
  - intro H. apply in_app_or in H. destruct H as [[<- | []] | H]; [left; reflexivity|].
    repeat (apply in_app_or in H; destruct H as [H | H]); apply in_map_iff in H; destruct H as [x [<- Hx]].
    + apply HS in Hx. right; left. exists x. auto.
    + apply HS in Hx. right; right. exists x. auto.
    + apply HA in Hx. right; left. exists x. auto.
    + apply filter_In in Hx. destruct Hx as [Hx Hf]. destruct x as [v [|]]; [discriminate|].
      apply HI in Hx. right; left. exists v. auto.
  - cbn [app In]. intros [-> | [[v [-> H]] | [v [-> H]]]]; [left; reflexivity | right ..].
    + destruct H as [H | [H | H]]; [apply HS in H | apply HA in H | apply HI in H].
      * apply in_or_app; left. exact (in_map SVar _ _ H).
      * do 2 (apply in_or_app; right). apply in_or_app; left. exact (in_map SVar _ _ H).
      * do 3 (apply in_or_app; right). apply (in_map (fun x => SVar (fst x)) _ (v, false)).
        apply filter_In. split; [exact H | reflexivity].
    + apply HS in H. apply in_or_app; right. apply in_or_app; left. exact (in_map SDer _ _ H).
Qed.

Lemma disallowed_bad m s : In s (disallowed m) <-> bad_sym m s.
Proof.
  apply (in_disallowed_list _ _ _ (is_state m) (is_alg m) (fun v => is_input m v false \/ is_delay_input m v));
    [apply in_states | apply in_alg | intro v].
  rewrite in_inputs. split; [intros [[H _] | H] | intros [H | H]]; auto.
Qed.

(* the `if self.delay_states:` guard decides nothing: without delay calls there is no duration to test *)
Lemma accepts_forallb m : accepts m = forallb (dur_ok m) (delays m).
Proof. unfold accepts, delay_states. destruct (delays m); reflexivity. Qed.

Theorem accepts_false_iff m :
  accepts m = false <->
  exists r s, In r (delays m) /\ In s (deps (dr_dur r)) /\ bad_sym m s.
Proof.
  rewrite accepts_forallb. exact (durs_ok_false_iff _ _ _ (disallowed_bad m)).
Qed.

Lemma accepts_true_iff m :
  accepts m = true <->
  forall r s, In r (delays m) -> In s (deps (dr_dur r)) -> ~ bad_sym m s.
Proof.
  rewrite <- not_false_iff_true, accepts_false_iff. split.
  - intros H r s Hr Hs Hb. apply H. exists r, s. auto.
  - intros H [r [s [Hr [Hs Hb]]]]. exact (H r s Hr Hs Hb).
Qed.

(* well-formedness of the input: distinct declaration ids below the delayed-state id range; durations
   only mention declared variables / delayed-state inputs, der() only of states *)
Definition scoped (m : model) (s : sym) : Prop :=
  match s with
  | SVar v => (exists k, declared m v k) \/ is_delay_input m v
  | SDer v => is_state m v
  | SLoop v => exists k, declared m v k
  | _ => True
  end.

Definition wf (m : model) : Prop :=
  NoDup (map d_id (m_decls m)) /\
  (forall d, In d (m_decls m) -> d_id d < m_base m) /\
  (forall r s, In r (delays m) -> In s (deps (dr_dur r)) -> scoped m s).

Lemma NoDup_map_inj {A B} (f : A -> B) l x y :
  NoDup (map f l) -> In x l -> In y l -> f x = f y -> x = y.
Proof.
  induction l as [|a l IH]; simpl; intros Hn Hx Hy He; [contradiction|].
  inversion Hn as [|? ? Hna Hnl]; subst.
  destruct Hx as [<- | Hx], Hy as [<- | Hy]; auto.
  - exfalso. apply Hna. rewrite He. apply in_map. exact Hy.
  - exfalso. apply Hna. rewrite <- He. apply in_map. exact Hx.
Qed.

Lemma declared_unique m v k1 k2 :
  NoDup (map d_id (m_decls m)) -> declared m v k1 -> declared m v k2 -> k1 = k2.
Proof.
  intros Hn [d1 [H1 [I1 K1]]] [d2 [H2 [I2 K2]]].
  assert (d1 = d2) by (apply (NoDup_map_inj d_id (m_decls m)); congruence). subst. congruence.
Qed.

Lemma find_declared m v d :
  find (fun d => Nat.eqb (d_id d) v) (m_decls m) = Some d -> declared m v (d_kind d).
Proof.
  intro H. apply find_some in H. destruct H as [Hi He]. apply Nat.eqb_eq in He. exists d. auto.
Qed.

Lemma declared_bad_or_good m v k : declared m v k -> bad_sym m (SVar v) \/ good_sym m (SVar v).
Proof.
  intro Hk. destruct k as [| |[|]|].
  - right. exists v. auto.
  - right. exists v. auto.
  - right. exists v. split; [reflexivity|]. right; right. exact Hk.
  - left. right; left. exists v. split; [reflexivity|]. right; right; left. exact Hk.
  - left. right; left. exists v. split; [reflexivity|].
    destruct (in_dec Nat.eq_dec v (der_refs m)); [left | right; left]; split; assumption.
Qed.

Lemma good_not_bad m s :
  NoDup (map d_id (m_decls m)) -> (forall d, In d (m_decls m) -> d_id d < m_base m) ->
  good_sym m s -> ~ bad_sym m s.
Proof.
  intros Hn Hlt [v [-> Hg]] Hb.
  destruct Hb as [Hb | [[w [Hw Hb]] | [w [Hw _]]]]; try discriminate.
  inversion Hw; subst w.
  assert (Hk : exists k, declared m v k /\ k <> KPlain /\ k <> KInput false).
  { destruct Hg as [H | [H | H]]; eexists; (split; [exact H | split; discriminate]). }
  destruct Hk as [k [Hk [N1 N2]]].
  destruct Hb as [[H _] | [[H _] | [H | H]]].
  - apply N1. exact (declared_unique m v _ _ Hn Hk H).
  - apply N1. exact (declared_unique m v _ _ Hn Hk H).
  - apply N2. exact (declared_unique m v _ _ Hn Hk H).
  - destruct Hk as [d [Hd [<- _]]]. apply Hlt in Hd.
    apply in_map_iff in H. destruct H as [j [E _]]. lia.
Qed.

Lemma scoped_not_bad m s : scoped m s -> ~ bad_sym m s -> good_sym m s \/ is_loop_sym s = true.
Proof.
  intros Hsc Hnb. destruct s as [|v|v|v|]; simpl in Hsc.
  - elim Hnb. left; reflexivity.
  - destruct Hsc as [[k Hk] | Hd].
    + destruct (declared_bad_or_good m v k Hk) as [Hb | Hg]; [elim (Hnb Hb) | left; exact Hg].
    + elim Hnb. right; left. exists v. auto 6.
  - elim Hnb. right; right. exists v. auto.
  - right; reflexivity.
  - right; reflexivity.
Qed.

Theorem accept_main m :
  wf m ->
  (accepts m = true <->
   forall r s, In r (delays m) -> In s (deps (dr_dur r)) -> good_sym m s \/ is_loop_sym s = true).
Proof.
  intros [Hn [Hlt Hsc]]. rewrite accepts_true_iff. split; intros H r s Hr Hs.
  - exact (scoped_not_bad m s (Hsc r s Hr Hs) (H r s Hr Hs)).
  - destruct (H r s Hr Hs) as [Hg | Hl]; [exact (good_not_bad m s Hn Hlt Hg)|].
    intros [-> | [[w [-> _]] | [w [-> _]]]]; discriminate.
Qed.

(* the carving hypothesis of the known findings: no duration mentions a loop placeholder *)
Definition no_loop_dep (m : model) : Prop :=
  forall r s, In r (delays m) -> In s (deps (dr_dur r)) -> is_loop_sym s = false.

Theorem accept_carved m :
  wf m -> no_loop_dep m ->
  (accepts m = true <-> forall r s, In r (delays m) -> In s (deps (dr_dur r)) -> good_sym m s).
Proof.
  intros Hw Hc. rewrite (accept_main m Hw). split; intros H r s Hr Hs.
  - destruct (H r s Hr Hs) as [Hg | Hl]; [exact Hg|]. rewrite (Hc r s Hr Hs) in Hl. discriminate.
  - left. exact (H r s Hr Hs).
Qed.

(* a product whose left factor did not fold to a literal *)
Lemma eval_mul_lit_r en i a' b :
  eval en i (match norm b with
             | Num y => if Z.eqb y 0 then Num 0 else Mul a' (Num y)
             | b' => Mul a' b'
             end) = (eval en i a' * eval en i (norm b))%Z.
Proof.
  destruct (norm b) as [y| | | | | | | | | | |]; try reflexivity.
  cbn [eval]. destruct (Z.eqb_spec y 0) as [-> | _]; [symmetry; apply Z.mul_0_r | reflexivity].
Qed.

Lemma eval_fold2 en i (op : Z -> Z -> Z) (C : expr -> expr -> expr) a b :
  (forall x y, eval en i (C x y) = op (eval en i x) (eval en i y)) ->
  eval en i (match norm a, norm b with
             | Num x, Num y => Num (op x y)
             | a', b' => C a' b'
             end) = op (eval en i (norm a)) (eval en i (norm b)).
Proof.
  intro HC. destruct (norm a); rewrite ?HC; try reflexivity. destruct (norm b); rewrite ?HC; reflexivity.
Qed.

Lemma norm_eval en i e : eval en i (norm e) = eval en i e.
Proof.
  induction e; cbn [norm eval]; try reflexivity.
  - rewrite <- IHe1, <- IHe2. exact (eval_fold2 en i Z.add Add e1 e2 (fun _ _ => eq_refl)).
  - rewrite <- IHe1, <- IHe2. exact (eval_fold2 en i Z.sub Sub e1 e2 (fun _ _ => eq_refl)).
  - rewrite <- IHe1, <- IHe2. destruct (norm e1) as [x| | | | | | | | | | |]; try apply eval_mul_lit_r.
    destruct (norm e2); try reflexivity; cbn [eval]; destruct (Z.eqb_spec x 0) as [-> | _]; reflexivity.
  - rewrite <- IHe. destruct (norm e); reflexivity.
  - rewrite IHe1, IHe2, IHe3, IHe4. reflexivity.
  - rewrite IHe. reflexivity.
  - rewrite IHe1, IHe2. reflexivity.
  - rewrite IHe1, IHe2. reflexivity.
Qed.

Definition agree_on (en1 en2 : envd) (s : sym) : Prop :=
  match s with
  | STime => e_time en1 = e_time en2
  | SVar v | SLoop v => forall k, var_at en1 v k = var_at en2 v k
  | SDer v => der_at en1 v = der_at en2 v
  | SIndex => True
  end.

Lemma eval_ext en1 en2 i e :
  Forall (agree_on en1 en2) (fsyms e) -> eval en1 i e = eval en2 i e.
Proof.
  induction e; cbn [fsyms eval]; intro H; try reflexivity;
    repeat (apply Forall_app in H; destruct H as [? H]);
    try (rewrite IHe1, IHe2 by assumption; reflexivity).
  - apply Forall_inv in H. destruct s; simpl in *; auto.
  - apply Forall_inv in H. exact (H k).
  - rewrite IHe by assumption. reflexivity.
  - rewrite IHe1, IHe2, IHe3, IHe4 by assumption. reflexivity.
  - rewrite IHe by assumption. reflexivity.
Qed.

Lemma eval_deps en1 en2 i e :
  Forall (agree_on en1 en2) (deps e) -> eval en1 i e = eval en2 i e.
Proof. intro H. rewrite <- (norm_eval en1), <- (norm_eval en2). apply eval_ext. exact H. Qed.

Lemma pairs_nth {A B} (f g : A -> B) l k r :
  nth_error l k = Some r ->
  let o := flat_map (fun r => [f r; g r]) l in
  nth_error o (2 * k) = Some (f r) /\ nth_error o (2 * k + 1) = Some (g r).
Proof.
  revert k. induction l as [|a l IH]; intros k Hk; [destruct k; discriminate|].
  destruct k as [|k]; simpl in Hk.
  - inversion Hk; subst. simpl. auto.
  - replace (2 * S k) with (S (S (2 * k))) by lia. replace (S (S (2 * k)) + 1) with (S (S (2 * k + 1))) by lia.
    exact (IH k Hk).
Qed.

Lemma pairs_length {A B} (f g : A -> B) l : length (flat_map (fun r => [f r; g r]) l) = 2 * length l.
Proof. induction l; simpl; [reflexivity | rewrite IHl; lia]. Qed.

Lemma nth_error_seq a n j : j < n -> nth_error (seq a n) j = Some (a + j).
Proof.
  intro H. rewrite nth_error_nth' with (d := 0) by (rewrite seq_length; exact H).
  rewrite seq_nth by exact H. reflexivity.
Qed.

Lemma expr_entry_shape en r :
  (indexed r = false -> expr_entry en r = [eval en 0 (dr_expr r)]) /\
  (forall lo hi, indexed r = true -> dr_loop r = Some (lo, hi) ->
     length (expr_entry en r) = S hi - lo /\
     forall j, j < S hi - lo -> nth_error (expr_entry en r) j = Some (eval en (lo + j) (dr_expr r))).
Proof.
  unfold expr_entry. split.
  - intro H. destruct (dr_loop r) as [[lo hi]|]; [rewrite H|]; reflexivity.
  - intros lo hi H E. rewrite E, H, map_length, seq_length. split; [reflexivity|].
    intros j Hj. exact (map_nth_error (fun j => eval en j (dr_expr r)) j _ (nth_error_seq lo _ j Hj)).
Qed.

(* the function cannot be built exactly when a placeholder is left in an output *)
Lemma func_fail_iff m :
  func_ok m = false <->
  exists r, In r (delays m) /\
    ((exists s, In s (deps (dr_dur r)) /\ is_loop_sym s = true) \/
     (indexed r = false /\ exists s, In s (deps (dr_expr r)) /\ is_loop_sym s = true)).
Proof.
  unfold func_ok. rewrite forallb_false_iff.
  split; intros [r [Hr H]]; exists r; (split; [exact Hr|]); unfold rec_closed in *.
  - apply andb_false_iff in H. destruct H as [H | H].
    + left. apply negb_false_iff, existsb_exists in H. exact H.
    + right. apply orb_false_iff in H. destruct H as [Hi H]. split; [exact Hi|].
      apply negb_false_iff, existsb_exists in H. exact H.
  - apply andb_false_iff. destruct H as [H | [Hi H]].
    + left. apply negb_false_iff, existsb_exists. exact H.
    + right. apply orb_false_iff. split; [exact Hi|]. apply negb_false_iff, existsb_exists. exact H.
Qed.

Fixpoint nd (e : expr) : nat :=
  match e with
  | Delay a d => S (nd a + nd d)
  | Add a b | Sub a b | Mul a b | Min a b | Max a b => nd a + nd b
  | Neg a | Abs a => nd a
  | Ite _ c1 c2 a b => nd c1 + nd c2 + nd a + nd b
  | _ => 0
  end.

Lemma thread_app {A B} (f : list drec -> A * list drec) (g : list drec -> B * list drec) na nb :
  (forall st, exists new, snd (f st) = st ++ new /\ length new = na) ->
  (forall st, exists new, snd (g st) = st ++ new /\ length new = nb) ->
  forall st, exists new, snd (g (snd (f st))) = st ++ new /\ length new = na + nb.
Proof.
  intros Hf Hg st. destruct (Hf st) as [n1 [H1 L1]]. rewrite H1.
  destruct (Hg (st ++ n1)) as [n2 [H2 L2]]. rewrite H2.
  exists (n1 ++ n2). rewrite app_assoc, app_length, L1, L2. auto.
Qed.

Lemma tr_app base loop e : forall st,
  exists new, snd (tr base loop e st) = st ++ new /\ length new = nd e.
Proof.
  (* two operands: their translations run one after the other (thread_app); that settles the binary
     operators and prepares Delay and Ite *)
  induction e; intro st; cbn [tr nd];
    try (exists []; rewrite app_nil_r; auto; fail);
    try (destruct (thread_app _ _ _ _ IHe1 IHe2 st) as [new H];
         destruct (tr base loop e1 st) as [a' s1]; cbn [snd] in H;
         destruct (tr base loop e2 s1) as [b' s2]; try (exists new; exact H)).
  - destruct (IHe st) as [n1 H]. destruct (tr base loop e st) as [a' s1]. exists n1. exact H.
  - destruct H as [H L]. cbn [snd] in *. subst s2. exists (new ++ [mkD a' b' loop]). split.
    + symmetry. apply app_assoc.
    + rewrite app_length, L. simpl. lia.
  - destruct H as [H L]. cbn [snd] in H. subst s2.
    destruct (thread_app _ _ _ _ IHe3 IHe4 (st ++ new)) as [new2 [H2 L2]].
    destruct (tr base loop e3 (st ++ new)) as [a3 s3]. cbn [snd] in H2.
    destruct (tr base loop e4 s3) as [a4 s4]. cbn [snd] in *.
    exists (new ++ new2). rewrite H2, app_assoc, app_length, L, L2. split; [reflexivity | lia].
  - destruct (IHe st) as [n1 H]. destruct (tr base loop e st) as [a' s1]. exists n1. exact H.
Qed.

(* the input created for a delay call is numbered by the delay calls completed before it:
   everything already created, then those inside its own two operands *)
Lemma tr_delay_id base loop a d st :
  fst (tr base loop (Delay a d) st) = Ref (SVar (base + (length st + nd a + nd d))) /\
  exists new x y, snd (tr base loop (Delay a d) st) = st ++ new ++ [mkD x y loop] /\ length new = nd a + nd d.
Proof.
  destruct (thread_app _ _ _ _ (tr_app base loop a) (tr_app base loop d) st) as [new [H L]].
  cbn [tr]. destruct (tr base loop a st) as [a' s1]. cbn [snd] in H.
  destruct (tr base loop d s1) as [d' s2]. cbn [fst snd] in *. subst s2. split.
  - rewrite app_length, L. f_equal. f_equal. lia.
  - exists new, a', d'. rewrite <- app_assoc. auto.
Qed.

Definition nd_body (b : list (expr * expr)) : nat :=
  fold_right (fun lr n => nd (fst lr) + nd (snd lr) + n) 0 b.
Definition nd_eqn (q : eqn) : nat :=
  match q with Eq l r => nd l + nd r | For _ _ b => nd_body b end.

Lemma tr_body_app base loop b : forall st,
  exists new, snd (tr_body base loop b st) = st ++ new /\ length new = nd_body b.
Proof.
  induction b as [|[l r] b IH]; intro st; cbn [tr_body nd_body fold_right fst snd].
  - exists []. rewrite app_nil_r. auto.
  - destruct (thread_app _ _ _ _ (thread_app _ _ _ _ (tr_app base loop l) (tr_app base loop r)) IH st)
      as [new H].
    destruct (tr base loop l st) as [l' s1]. cbn [snd] in H.
    destruct (tr base loop r s1) as [r' s2]. cbn [snd] in H.
    destruct (tr_body base loop b s2) as [b' s3]. exists new. exact H.
Qed.

Lemma tr_eqs_app base eqs : forall st ok,
  exists new, fst (tr_eqs base eqs st ok) = st ++ new /\
              length new = fold_right (fun q n => nd_eqn q + n) 0 eqs.
Proof.
  induction eqs as [|q eqs IH]; intros st ok; simpl.
  - exists []. rewrite app_nil_r. auto.
  - destruct q as [l r | lo hi b].
    + destruct (thread_app _ _ _ _ (tr_app base None l) (tr_app base None r) st) as [n1 [H1 L1]].
      destruct (tr base None l st) as [l' s1]. cbn [snd] in H1.
      destruct (tr base None r s1) as [r' s2]. cbn [snd] in H1. subst s2.
      destruct (IH (st ++ n1) ok) as [n3 [H3 L3]]. rewrite H3.
      exists (n1 ++ n3). rewrite app_assoc, app_length, L1, L3. auto.
    + destruct (tr_body_app base (Some (lo, hi)) b st) as [n1 [H1 L1]].
      destruct (tr_body base (Some (lo, hi)) b st) as [b' s1]. cbn [snd] in H1. subst s1.
      generalize (ok && forallb (loop_delay_ok (body_syms b')) (skipn (length st) (st ++ n1))). intro ok'.
      destruct (IH (st ++ n1) ok') as [n3 [H3 L3]]. rewrite H3.
      exists (n1 ++ n3). rewrite app_assoc, app_length, L1, L3. auto.
Qed.

Lemma delays_length m : length (delays m) = fold_right (fun q n => nd_eqn q + n) 0 (m_eqs m).
Proof.
  unfold delays. destruct (tr_eqs_app (m_base m) (m_eqs m) [] true) as [new [H L]].
  rewrite H. exact L.
Qed.

Lemma delay_states_nth m k : k < length (delays m) -> nth_error (delay_states m) k = Some (m_base m + k).
Proof. intro Hk. exact (map_nth_error (fun k => m_base m + k) k _ (nth_error_seq 0 _ k Hk)). Qed.
