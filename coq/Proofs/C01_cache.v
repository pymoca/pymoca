(* C01 — proofs over Model/C01_cache.v: sound rows along every legal history, hence transparent Parses. *)
From Coq Require Import List Bool Arith ZArith Lia.
Import ListNotations.
From PV Require Import Model.C01_cache.

(* Histories the property quantifies over: the fault list of the property (entries that no longer
   unpickle, wrong layout, corrupt file, version change, ...).  Planting a VALID pickle of another
   object / another text's tree in a row is not in that list. *)
Definition legal_op (o : op) : bool :=
  match o with
  | CorruptEntry _ (Good _) | CorruptEntry _ OtherObject => false
  | _ => true
  end.
Definition legal (h : list op) : bool := forallb legal_op h.

(* faults after which a caching parse in an initialised process raises sqlite3.DatabaseError *)
Definition breaks (o : op) : bool :=
  match o with
  | CorruptFile | DeleteFile | ZeroFile | MakeDir
  | CorruptLayout LModelsDropped | CorruptLayout LModelsWrong | CorruptLayout LModelsView => true
  | _ => false
  end.

(* faults no re-initialisation can repair (only the decorator's fall-back to an uncached parse copes with them) *)
Definition persistent (o : op) : bool :=
  match o with MakeDir | CorruptLayout LModelsView => true | _ => false end.

(* "every database fault that hits an initialised process is followed by a Reload before the next
   (caching) Parse": a three-bit automaton over the op list.  init = this process has checked the
   database, dirty = a breaking fault happened since, vclean = the current version is not *.dirty *)
Fixpoint disciplined (init dirty vclean : bool) (h : list op) : bool :=
  match h with
  | [] => true
  | o :: h' =>
    match o with
    | Parse _ _ _ => if vclean then negb dirty && disciplined true false true h'
                     else disciplined init dirty vclean h'
    | Reload => disciplined false false vclean h'
    | SetVersion v => disciplined init dirty (is_clean v) h'
    | _ => negb (persistent o) && disciplined init (dirty || (init && breaks o)) vclean h'
    end
  end.

Definition usable (d : db) : Prop := match d with Db (MOk _ _) _ => True | _ => False end.
(* repairable by the once-per-process block: not a directory, no view named models *)
Definition benign (d : db) : Prop := match d with Dir | Db MView _ => False | _ => True end.

Lemma Forall_filter {A} (P : A -> Prop) (f : A -> bool) (l : list A) : Forall P l -> Forall P (filter f l).
Proof. apply incl_Forall, incl_filter. Qed.

Section Proofs.
  Variable syntax_ok : nat -> bool.
  Variable caught : exn -> bool.
  Variable flag : bool.

  Notation fresh_out := (fresh_out syntax_ok).
  Notation step := (step syntax_ok caught flag).
  Notation next := (next syntax_ok caught flag).
  Notation outcome := (outcome syntax_ok caught flag).
  Notation run := (run syntax_ok caught flag).
  Notation exec := (exec syntax_ok caught flag).
  Notation parse_step := (parse_step syntax_ok caught flag).

  (* a row is sound: its text parses, and its blob is the tree of ITS OWN text or does not unpickle *)
  Definition row_ok (r : row) : Prop :=
    syntax_ok (r_key r) = true /\
    match r_blob r with Good t' => t' = r_key r | OtherObject => False | _ => True end.

  Definition db_inv (d : db) : Prop :=
    match d with Db (MOk _ rows) _ => Forall row_ok rows | _ => True end.
  Definition Inv (s : state) : Prop := db_inv (s_db s).

  Definition out_ok (o : op) (r : out) : Prop :=
    match o with Parse t _ _ => r = fresh_out t | _ => r = ONone end.

  (* every parse of the history returns what an uncached parse returns; nothing is raised *)
  Definition transparent (s : state) (h : list op) : Prop := Forall2 out_ok h (run s h).

  Lemma db_inv_init_db s exp d : db_inv (s_db s) -> init_db s exp = Some d -> db_inv d.
  Proof.
    unfold init_db, connect, integrity, check_structure, prune.
    destruct (s_db s) as [| | |[| | |[] rows] mt]; destruct (s_init s); simpl; intros H [= <-];
      simpl; auto using Forall_filter, Forall_nil.
  Qed.

  Lemma touch_ok k v now rows : Forall row_ok rows -> Forall row_ok (touch k v now rows).
  Proof.
    intros H. apply Forall_map. revert H. apply Forall_impl.
    intros r Hr. destruct (same_key k v r); exact Hr.
  Qed.

  Lemma insert_ok t v now rows :
    syntax_ok t = true -> Forall row_ok rows -> Forall row_ok (insert t v (Good t) now rows).
  Proof.
    intros Ht H. unfold insert. constructor.
    - split; simpl; auto.
    - apply Forall_filter, H.
  Qed.

  Lemma set_blob_ok key b rows :
    legal_op (CorruptEntry key b) = true -> Forall row_ok rows -> Forall row_ok (set_blob key b rows).
  Proof.
    intros Hl H. apply Forall_map. revert H. apply Forall_impl.
    intros r [H1 H2]. destruct (Nat.eqb (r_key r) key); [|split; assumption].
    split; [exact H1|]. destruct b; try exact I; discriminate Hl.
  Qed.

  Definition good_for_parse (s : state) (exp : Z) : Prop :=
    match init_db s exp with Some d => usable d | None => False end.

  (* what the proofs need of one Parse of a clean version; [good]: the lookup finds a usable database *)
  Definition parse_spec (s : state) (t : nat) (good : Prop) (r : state * out * nat) : Prop :=
    let s' := fst (fst r) in
    s_ver s' = s_ver s /\ Inv s' /\ (good -> s_init s' = true /\ usable (s_db s')) /\
    ((forall e, caught e = true) -> flag = true \/ good -> snd (fst r) = fresh_out t).

  Lemma db_fail_spec d e s t i n : db_inv d -> parse_spec s t False (db_fail syntax_ok flag d e s t i n).
  Proof.
    intros Hd. unfold db_fail.
    split; [destruct flag; reflexivity|]. split; [destruct flag; exact Hd|]. split; [intros []|].
    intros _ [->|[]]. reflexivity.
  Qed.

  Lemma miss_spec x rows mt s v t good :
    Forall row_ok rows -> parse_spec s t good (miss syntax_ok x rows mt s v t).
  Proof.
    intros H. split; [reflexivity|]. split; [|split; [split; [reflexivity | exact I] | reflexivity]].
    unfold Inv, miss. cbn [fst s_db db_inv]. destruct (syntax_ok t) eqn:E; auto using insert_ok.
  Qed.

  Lemma connect_inv d : db_inv d -> db_inv (connect d).
  Proof. destruct d; simpl; auto. Qed.

  Lemma parse_dirty s v t exp upd : s_ver s = Dirty v -> parse_step s t exp upd = (s, fresh_out t, 1%nat).
  Proof. intros Hv. unfold parse_step. rewrite Hv. reflexivity. Qed.

  Lemma parse_clean s v t exp upd :
    s_ver s = Clean v -> Inv s -> parse_spec s t (good_for_parse s exp) (parse_step s t exp upd).
  Proof.
    intros Hv H. pose proof (db_inv_init_db s exp) as Hi.
    unfold good_for_parse, parse_step. rewrite Hv.
    destruct (init_db s exp) as [d|]; [|apply db_fail_spec, connect_inv, H].
    destruct d as [| | |[| | |x rows] mt]; try (apply db_fail_spec; exact I).
    - destruct (syntax_ok t) eqn:Es; [apply db_fail_spec; exact I|].
      split; [symmetry; exact Hv|]. split; [exact I|]. split; [intros []|]. intros _ _.
      unfold C01_cache.fresh_out. rewrite Es. reflexivity.
    - specialize (Hi _ H eq_refl). cbn [db_inv] in Hi.
      destruct (lookup t v rows) as [r|] eqn:El; [|apply miss_spec, Hi].
      set (rows1 := if upd || _ then _ else _).
      assert (H1 : Forall row_ok rows1) by (unfold rows1; destruct (_ || _); auto using touch_ok).
      apply find_some in El as [Hin Hk]. destruct (proj1 (Forall_forall _ _) Hi r Hin) as [Hs Hb].
      apply andb_true_iff in Hk as [Hk _]. apply Nat.eqb_eq in Hk.
      assert (Hit : forall o, ((forall e, caught e = true) -> o = fresh_out t) ->
                parse_spec s t True (St (Db (MOk x rows1) mt) true (s_clock s) (Clean v), o, 0%nat)).
      { intros o Ho. split; [symmetry; exact Hv|]. split; [exact H1|]. split; [split; [reflexivity | exact I]|]. auto. }
      destruct (r_blob r) as [t'|e| |]; [| |apply miss_spec, H1|destruct Hb].
      + apply Hit. intros _. subst. unfold C01_cache.fresh_out. rewrite Hs. reflexivity.
      + destruct (caught e) eqn:Ec; [apply miss_spec, H1|].
        apply Hit. intros Hc. rewrite Hc in Ec. discriminate Ec.
  Qed.

  Lemma step_inv s o : legal_op o = true -> Inv s -> Inv (next s o).
  Proof.
    intros Hl H. unfold next. destruct o as [t exp upd| | | |key b|k| | | |]; simpl; try exact H; try exact I.
    - destruct (s_ver s) as [v|v] eqn:Hv.
      + apply (parse_clean s v t exp upd Hv H).
      + rewrite (parse_dirty s v) by exact Hv. exact H.
    - unfold Inv in *. simpl. destruct (s_db s) as [| | |[| | |x rows] mt]; simpl; auto.
      apply set_blob_ok; auto.
    - unfold Inv in *. simpl. destruct (s_db s) as [| | |[| | |x rows] mt]; destruct k; simpl; auto.
  Qed.

  Lemma exec_inv h s : legal h = true -> Inv s -> Inv (exec s h).
  Proof.
    revert s. induction h as [|o h IH]; intros s Hl H; simpl; auto.
    simpl in Hl. apply andb_true_iff in Hl as [Ho Hh]. apply IH; auto using step_inv.
  Qed.

  Lemma transparent_at s h1 o h2 : transparent s (h1 ++ o :: h2) -> out_ok o (outcome (exec s h1) o).
  Proof.
    revert s. induction h1 as [|a h1 IH]; intros s H; inversion H; subst; [assumption | apply IH; assumption].
  Qed.

  Hypothesis all_caught : forall e, caught e = true.

  Lemma parse_out s t exp upd :
    Inv s -> (flag = true \/ good_for_parse s exp) -> outcome s (Parse t exp upd) = fresh_out t.
  Proof.
    intros H Hu. unfold C01_cache.outcome. cbn [C01_cache.step]. destruct (s_ver s) as [v|v] eqn:Hv.
    - apply (parse_clean s v t exp upd Hv H); assumption.
    - rewrite (parse_dirty s v) by exact Hv. reflexivity.
  Qed.

  Lemma other_out s o : (forall t d u, o <> Parse t d u) -> outcome s o = ONone.
  Proof. intros H. destruct o; try reflexivity. exfalso. eapply H. reflexivity. Qed.

  Lemma usable_benign d : usable d -> benign d.
  Proof. destruct d as [| | |[| | |x rows] mt]; simpl; auto. Qed.

  Lemma good_init_db s exp :
    benign (s_db s) -> (s_init s = true -> usable (s_db s)) -> good_for_parse s exp.
  Proof.
    unfold good_for_parse, init_db. destruct (s_init s).
    - intros _ H. specialize (H eq_refl).
      destruct (s_db s) as [| | |[| | |x rows] mt]; simpl in *; try contradiction. exact I.
    - intros Hb _.
      destruct (s_db s) as [| | |[| | |[] rows] mt]; simpl in *; try contradiction; exact I.
  Qed.

  Definition plain (o : op) : Prop :=
    match o with Parse _ _ _ | Reload | SetVersion _ => False | _ => True end.

  Lemma fault_effect s o :
    plain o ->
    s_init (next s o) = s_init s /\ s_ver (next s o) = s_ver s /\
    (breaks o = false -> usable (s_db s) -> usable (s_db (next s o))) /\
    (persistent o = false -> benign (s_db s) -> benign (s_db (next s o))).
  Proof.
    intros Hp. unfold next.
    destruct o as [| | |dt|key b|k| | | |]; try contradiction; cbn [step fst s_init s_ver s_db];
      (split; [reflexivity|]; split; [reflexivity|]).
    1: (* Advance *)
       split; intros _ Hd; exact Hd.
    1: (* CorruptEntry *)
       split; intros _ Hd; destruct (s_db s) as [| | |[| | |x rows] mt]; exact Hd.
    1: (* CorruptLayout *)
       split; intros Hf Hd; destruct k; try discriminate Hf;
         destruct (s_db s) as [| | |[| | |x rows] mt]; first [exact Hd | exact I].
    1-3: (* CorruptFile, DeleteFile, ZeroFile *)
       split; [discriminate | intros _ _; exact I].
    (* MakeDir *)
    split; discriminate.
  Qed.

  Lemma disciplined_fault i d c o h :
    plain o ->
    disciplined i d c (o :: h) = negb (persistent o) && disciplined i (d || (i && breaks o)) c h.
  Proof. intros Hp. destruct o; try contradiction; reflexivity. Qed.

  (* init and vclean are read off the state; [dirty] is a ghost: while it is false in an initialised
     process, the database is usable *)
  Definition tracked (s : state) (h : list op) : Prop :=
    exists dirty, benign (s_db s) /\ (s_init s = true -> dirty = false -> usable (s_db s)) /\
                  disciplined (s_init s) dirty (is_clean (s_ver s)) h = true.

  Lemma tracked_fault s o h : plain o -> tracked s (o :: h) -> tracked (next s o) h.
  Proof.
    intros Hp (d & Hb & Hu & Hd). rewrite disciplined_fault in Hd by exact Hp.
    apply andb_true_iff in Hd as [Hn Hd]. apply negb_true_iff in Hn.
    destruct (fault_effect s o Hp) as (A & B & U & N).
    exists (d || (s_init s && breaks o)). rewrite A, B. split; [auto|]. split; [|exact Hd].
    intros E1 E2. apply orb_false_iff in E2 as [E2 E3]. rewrite E1, andb_true_l in E3. auto.
  Qed.

  Lemma tracked_step s o h :
    Inv s -> tracked s (o :: h) -> out_ok o (outcome s o) /\ tracked (next s o) h.
  Proof.
    intros H Ht.
    destruct o as [t exp upd| |v|dt|key b|k| | | |];
      try (split; [reflexivity | apply tracked_fault; [exact I | exact Ht]]);
      destruct Ht as (d & Hb & Hu & Hd); cbn [disciplined] in Hd.
    - destruct (s_ver s) as [n|n] eqn:Hv; cbn [is_clean] in Hd.
      + apply andb_true_iff in Hd as [Hdirty Hd]. apply negb_true_iff in Hdirty. subst d.
        assert (Hus : good_for_parse s exp) by (apply good_init_db; auto).
        destruct (parse_clean s n t exp upd Hv H) as (B & _ & C & O). destruct (C Hus) as [A U].
        split; [exact (O all_caught (or_intror Hus))|].
        exists false. unfold next. cbn [step]. rewrite A, B, Hv.
        split; [apply usable_benign, U|]. split; [auto | exact Hd].
      + unfold C01_cache.outcome, C01_cache.next. cbn [C01_cache.step]. rewrite (parse_dirty s n) by exact Hv.
        split; [reflexivity|]. exists d. cbn [fst]. rewrite Hv. auto.
    - split; [reflexivity|]. exists false. split; [exact Hb|]. split; [discriminate | exact Hd].
    - split; [reflexivity|]. exists d. split; [exact Hb|]. split; [exact Hu | exact Hd].
  Qed.

  Theorem transparent_if s h : legal h = true -> Inv s -> flag = true \/ tracked s h -> transparent s h.
  Proof.
    revert s. induction h as [|o h IH]; intros s Hl H Hd; [constructor|].
    simpl in Hl. apply andb_true_iff in Hl as [Ho Hh]. pose proof (step_inv s o Ho H) as H'.
    assert (out_ok o (outcome s o) /\ (flag = true \/ tracked (next s o) h)) as [Hout Hd'].
    { destruct Hd as [Hf|Ht].
      - split; [|auto]. destruct o; try reflexivity. apply parse_out; auto.
      - destruct (tracked_step s o h H Ht) as [Hout Ht']. auto. }
    constructor; [exact Hout | exact (IH _ Hh H' Hd')].
  Qed.

  (* C01_transparent for a source that handles DatabaseError after initialisation *)
  Theorem transparent_fixed : flag = true -> forall s h, legal h = true -> Inv s -> transparent s h.
  Proof. intros Hf s h Hl H. apply transparent_if; auto. Qed.

  (* C01_transparent_reload_partial: a source that does NOT handle DatabaseError after initialisation (any
     flag), from a freshly started process *)
  Theorem transparent_reload s h :
    legal h = true -> Inv s -> s_init s = false -> benign (s_db s) ->
    disciplined false false (is_clean (s_ver s)) h = true -> transparent s h.
  Proof.
    intros Hl H Hi Hb Hd. apply transparent_if; [exact Hl | exact H | right].
    exists false. rewrite Hi. split; [exact Hb|]. split; [discriminate | exact Hd].
  Qed.
End Proofs.

Definition witness_dberr : list op := [Parse 0 (30 * DAY) false; CorruptFile; Parse 0 (30 * DAY) false].
Definition witness_uncaught (e : exn) : list op := [Parse 0 (30 * DAY) false; CorruptEntry 0 (Raises e); Parse 0 (30 * DAY) false].

(* [flag] with [flag = false]: the run instantiates it with the measured gen_handles_dberr *)
Theorem refuted_dberr sy caught flag :
  flag = false -> exists h, legal h = true /\ ~ transparent sy caught flag init_state h.
Proof.
  intros ->. exists witness_dberr. split; [reflexivity|]. intros H.
  apply (transparent_at sy caught false init_state [_; _]) in H.
  unfold out_ok, fresh_out in H. destruct (sy 0%nat); vm_compute in H; discriminate H.
Qed.

Theorem refuted_uncaught sy caught flag e :
  caught e = false -> sy 0%nat = true ->
  legal (witness_uncaught e) = true /\ ~ transparent sy caught flag init_state (witness_uncaught e).
Proof.
  intros Hc Hs. split; [reflexivity|]. intros H.
  apply (transparent_at sy caught flag init_state [_; _]) in H.
  assert (E : exec sy caught flag init_state [Parse 0 (30 * DAY) false; CorruptEntry 0 (Raises e)]
              = St (Db (MOk false [Row 0 0 (Raises e) 0]) TOk) true 0 (Clean 0)).
  { cbn. rewrite Hs. reflexivity. }
  rewrite E in H. unfold out_ok, outcome, step, parse_step in H. cbn in H. rewrite Hc in H. cbn in H.
  unfold fresh_out in H. destruct (sy 0%nat); discriminate H.
Qed.
