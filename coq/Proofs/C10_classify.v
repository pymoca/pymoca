(* C10 — proofs about Model/C10_classify.v: membership in the category lists and the error outcome
   are read off the prefix list of the declared symbol.  Stdlib lists only. *)
From Coq Require Import List Arith Bool PeanoNat Permutation Sorted.
From PV Require Import Model.C10_classify.
Import ListNotations.

Lemma code_eqb_eq {A} (code : A -> nat) (decode : nat -> A) :
  (forall a, decode (code a) = a) ->
  forall a b, Nat.eqb (code a) (code b) = true <-> a = b.
Proof.
  intros D a b. rewrite Nat.eqb_eq. split; [|intros ->; reflexivity].
  intros E. rewrite <- (D a), <- (D b), E. reflexivity.
Qed.

Lemma kw_eqb_eq a b : kw_eqb a b = true <-> a = b.
Proof.
  apply (code_eqb_eq kw_code (fun n => match n with
    | 0 => Kconstant | 1 => Kparameter | 2 => Kinput | 3 => Koutput
    | 4 => Kdiscrete | 5 => Kflow | 6 => Kstream | _ => Kstate end)).
  intros []; reflexivity.
Qed.

Lemma cat_eqb_eq a b : cat_eqb a b = true <-> a = b.
Proof.
  apply (code_eqb_eq cat_code (fun n => match n with
    | 0 => CConst | 1 => CStrConst | 2 => CParam | 3 => CStrParam
    | 4 => CInput | 5 => CState | _ => CAlg end)).
  intros []; reflexivity.
Qed.

Lemma cat_eqb_refl a : cat_eqb a a = true.
Proof. apply cat_eqb_eq; reflexivity. Qed.

Lemma has_In k p : has k p = true <-> In k p.
Proof.
  unfold has; rewrite existsb_exists; split.
  - intros (x & Hx & E). apply kw_eqb_eq in E. subst; assumption.
  - intros H. exists k; split; [assumption | apply kw_eqb_eq; reflexivity].
Qed.

Lemma has_false k p : has k p = false <-> ~ In k p.
Proof. rewrite <- has_In. symmetry. apply not_true_iff_false. Qed.

Lemma mem_In n l : mem n l = true <-> In n l.
Proof.
  unfold mem; rewrite existsb_exists; split.
  - intros (x & Hx & E). apply Nat.eqb_eq in E. subst; assumption.
  - intros H. exists n; split; [assumption | apply Nat.eqb_refl].
Qed.

Lemma cat_of_inv p t :
  match cat_of p t with
  | CConst => In Kconstant p /\ t <> TString
  | CStrConst => In Kconstant p /\ t = TString
  | CParam => ~ In Kconstant p /\ In Kparameter p /\ t <> TString
  | CStrParam => ~ In Kconstant p /\ In Kparameter p /\ t = TString
  | CInput => ~ In Kconstant p /\ ~ In Kparameter p /\ In Kinput p
  | CState => ~ In Kconstant p /\ ~ In Kparameter p /\ ~ In Kinput p /\ In Kstate p
  | CAlg => ~ In Kconstant p /\ ~ In Kparameter p /\ ~ In Kinput p /\ ~ In Kstate p
  end.
Proof.
  unfold cat_of.
  destruct (has Kconstant p) eqn:Hc; [apply has_In in Hc | apply has_false in Hc].
  { destruct t; simpl; split; try assumption; try reflexivity; intro E; discriminate E. }
  destruct (has Kparameter p) eqn:Hp; [apply has_In in Hp | apply has_false in Hp].
  { destruct t; simpl; repeat split; try assumption; try reflexivity; intro E; discriminate E. }
  destruct (has Kinput p) eqn:Hi; [apply has_In in Hi | apply has_false in Hi].
  { repeat split; assumption. }
  destruct (has Kstate p) eqn:Hs; [apply has_In in Hs | apply has_false in Hs];
  repeat split; assumption.
Qed.

Lemma filter_andb {A} (p q : A -> bool) l : filter p (filter q l) = filter (fun x => q x && p x) l.
Proof.
  induction l as [|a l IH]; simpl; [reflexivity|].
  destruct (q a); simpl; [destruct (p a)|]; rewrite IH; reflexivity.
Qed.

Lemma filter_comm {A} (p q : A -> bool) l : filter p (filter q l) = filter q (filter p l).
Proof. rewrite !filter_andb. apply filter_ext. intros a. apply andb_comm. Qed.

Lemma filter_perm {A} (p : A -> bool) l l' : Permutation l l' -> Permutation (filter p l) (filter p l').
Proof.
  induction 1; simpl.
  - constructor.
  - destruct (p x); [constructor|]; assumption.
  - destruct (p x), (p y); try apply Permutation_refl. apply perm_swap.
  - eapply Permutation_trans; eassumption.
Qed.

Lemma NoDup_map_filter {A B} (f : A -> B) (p : A -> bool) l :
  NoDup (map f l) -> NoDup (map f (filter p l)).
Proof.
  induction l as [|a l IH]; simpl; intros ND; [constructor|].
  inversion ND as [|? ? Hn ND']; subst.
  destruct (p a); [|apply IH, ND'].
  simpl. constructor; [|apply IH, ND'].
  intros Hin. apply Hn. exact (incl_map f (incl_filter p l) _ Hin).
Qed.

Lemma filter_sorted {A} (R : A -> A -> Prop) (p : A -> bool) l :
  StronglySorted R l -> StronglySorted R (filter p l).
Proof.
  induction 1 as [|a l Hs IH Hf]; simpl; [constructor|].
  destruct (p a); [|exact IH].
  constructor; [exact IH|]. exact (incl_Forall (incl_filter p l) Hf).
Qed.

Lemma flat_map_app_perm {A B} (g h : B -> list A) cs :
  Permutation (flat_map (fun c => g c ++ h c) cs) (flat_map g cs ++ flat_map h cs).
Proof.
  induction cs as [|c cs IH]; simpl; [constructor|].
  rewrite <- !app_assoc. apply Permutation_app_head.
  eapply Permutation_trans; [apply Permutation_app_head, IH|apply Permutation_app_swap_app].
Qed.

Lemma cat_single {A} (x : A) c : flat_map (fun c' => if cat_eqb c c' then [x] else []) all_cats = [x].
Proof. destruct c; reflexivity. Qed.

(* the classes of a function into the categories partition a list: a new element lands in exactly
   one of them (cat_single) *)
Lemma partition_perm {A} (f : A -> cat) l :
  Permutation (flat_map (fun c => filter (fun x => cat_eqb (f x) c) l) all_cats) l.
Proof.
  induction l as [|a l IH]; [apply Permutation_refl|].
  rewrite (flat_map_ext _ (fun c => (if cat_eqb (f a) c then [a] else []) ++
                                    filter (fun x => cat_eqb (f x) c) l))
    by (intros c; cbn [filter]; destruct (cat_eqb (f a) c); reflexivity).
  eapply Permutation_trans; [apply flat_map_app_perm|]. rewrite cat_single. apply perm_skip, IH.
Qed.

Definition ord_le (a b : sym) : Prop := s_order a <= s_order b.

Lemma insert_perm s l : Permutation (insert s l) (s :: l).
Proof.
  induction l as [|t l IH]; simpl; [apply Permutation_refl|].
  destruct (s_order s <=? s_order t); [apply Permutation_refl|].
  eapply Permutation_trans; [apply perm_skip, IH | apply perm_swap].
Qed.

Lemma sort_perm l : Permutation (sort l) l.
Proof.
  induction l as [|a l IH]; simpl; [constructor|].
  eapply Permutation_trans; [apply insert_perm | constructor; exact IH].
Qed.

Lemma insert_sorted s l : StronglySorted ord_le l -> StronglySorted ord_le (insert s l).
Proof.
  induction l as [|t l IH]; intros H; simpl.
  - constructor; constructor.
  - inversion H as [|? ? Hs Hf]; subst. destruct (s_order s <=? s_order t) eqn:E.
    + apply Nat.leb_le in E. constructor; [exact H|]. constructor; [exact E|].
      eapply Forall_impl; [|exact Hf]. intros x Hx. exact (Nat.le_trans _ _ _ E Hx).
    + apply Nat.leb_gt in E. constructor; [apply IH, Hs|].
      eapply Permutation_Forall; [apply Permutation_sym, insert_perm|].
      constructor; [apply Nat.lt_le_incl, E | exact Hf].
Qed.

Lemma sort_sorted l : StronglySorted ord_le (sort l).
Proof. induction l; simpl; [constructor | apply insert_sorted; assumption]. Qed.

(* stability: symbols with equal order keep their relative (dict) order *)
Definition at_order (k : nat) (s : sym) : bool := Nat.eqb (s_order s) k.

Lemma insert_stable k s l : filter (at_order k) (insert s l) = filter (at_order k) (s :: l).
Proof.
  induction l as [|t l IH]; [reflexivity|].
  cbn [insert]. destruct (s_order s <=? s_order t) eqn:E; [reflexivity|].
  apply Nat.leb_gt in E. cbn [filter]. rewrite IH. cbn [filter]. unfold at_order.
  destruct (Nat.eqb (s_order t) k) eqn:Et, (Nat.eqb (s_order s) k) eqn:Es; try reflexivity.
  (* s went past t, so they are not both at k *)
  apply Nat.eqb_eq in Et, Es. rewrite Et, Es in E. destruct (Nat.lt_irrefl _ E).
Qed.

Lemma sort_stable k l : filter (at_order k) (sort l) = filter (at_order k) l.
Proof.
  induction l as [|a l IH]; [reflexivity|].
  cbn [sort fold_right]. fold (sort l).
  rewrite insert_stable.
  cbn [filter]. rewrite IH. reflexivity.
Qed.

Lemma annotate1_name ds s : s_name (annotate1 ds s) = s_name s.
Proof. unfold annotate1. destruct (_ && _); reflexivity. Qed.
Lemma annotate1_order ds s : s_order (annotate1 ds s) = s_order s.
Proof. unfold annotate1. destruct (_ && _); reflexivity. Qed.
Lemma annotate1_ty ds s : s_ty (annotate1 ds s) = s_ty s.
Proof. unfold annotate1. destruct (_ && _); reflexivity. Qed.
Lemma annotate1_empty ds s : s_empty (annotate1 ds s) = s_empty s.
Proof. unfold annotate1. destruct (_ && _); reflexivity. Qed.

Lemma annotate1_pref ds s k :
  In k (s_pref (annotate1 ds s)) <->
  In k (s_pref s) \/ (k = Kstate /\ In (s_name s) ds).
Proof.
  unfold annotate1.
  destruct (mem (s_name s) ds) eqn:M; simpl.
  - apply mem_In in M.
    destruct (has Kstate (s_pref s)) eqn:Hs; simpl.
    + apply has_In in Hs. split; [tauto|]. intros [H|[-> _]]; assumption.
    + rewrite in_app_iff; simpl. split.
      * intros [H|[<-|[]]]; [left; assumption | right; split; [reflexivity | assumption]].
      * intros [H|[-> _]]; [left; assumption | right; left; reflexivity].
  - split; [tauto|]. intros [H|[_ H]]; [assumption|].
    apply mem_In in H. rewrite H in M. discriminate M.
Qed.

Lemma annotate1_pref_other ds s k :
  k <> Kstate -> (In k (s_pref (annotate1 ds s)) <-> In k (s_pref s)).
Proof.
  intros Hk. rewrite annotate1_pref. split; [intros [H|[E _]]; [exact H | contradiction] | tauto].
Qed.

Lemma annotate1_state ds s :
  In Kstate (s_pref (annotate1 ds s)) <-> In Kstate (s_pref s) \/ In (s_name s) ds.
Proof. rewrite annotate1_pref. split; [intros [H|[_ H]]; tauto | intros [H|H]; auto]. Qed.

Lemma annotate_names fc : map s_name (annotate fc) = map s_name (f_syms fc).
Proof.
  unfold annotate. rewrite map_map. apply map_ext. intros; apply annotate1_name.
Qed.

(* independent inductive reading: [under n d e] — n occurs in e at a position that is
   below a der node, or d holds already at the root *)
Inductive under (n : nat) : bool -> expr -> Prop :=
| U_ref : under n true (ERef n)
| U_op d b args a : In a args -> under n (d || b) a -> under n d (EOp b args).

Fixpoint expr_ind' (P : expr -> Prop)
    (Href : forall n, P (ERef n)) (Hlit : P ELit)
    (Hop : forall b args, Forall P args -> P (EOp b args)) (e : expr) : P e :=
  match e with
  | ERef n => Href n
  | ELit => Hlit
  | EOp b args =>
      Hop b args ((fix go (l : list expr) : Forall P l :=
                     match l with
                     | [] => Forall_nil P
                     | a :: l' => Forall_cons a (expr_ind' P Href Hlit Hop a) (go l')
                     end) args)
  end.

Lemma in_der_op c (b : bool) : (0 <? (if b then S c else c)) = (0 <? c) || b.
Proof. destruct b; [rewrite orb_true_r|rewrite orb_false_r]; reflexivity. Qed.

Lemma der_refs_under n e : forall c, In n (der_refs c e) <-> under n (0 <? c) e.
Proof.
  induction e as [m| |b args IH] using expr_ind'; intros c; simpl.
  - destruct (0 <? c) eqn:E; simpl.
    + split; [intros [<-|[]]; constructor | intros H; inversion H; subst; left; reflexivity].
    + split; [intros [] | intros H; inversion H].
  - split; [intros [] | intros H; inversion H].
  - rewrite in_flat_map. rewrite Forall_forall in IH. split.
    + intros (a & Ha & Hn). apply (IH a Ha) in Hn. rewrite in_der_op in Hn.
      exact (U_op n _ b args a Ha Hn).
    + intros H. inversion H as [|d b' args' a Ha Hn]; subst.
      exists a; split; [exact Ha|]. apply (IH a Ha). rewrite in_der_op. exact Hn.
Qed.

Lemma all_der_refs_under fc n :
  In n (all_der_refs fc) <-> exists e, In e (f_exprs fc) /\ under n false e.
Proof.
  unfold all_der_refs. rewrite in_flat_map.
  split; intros (e & He & H); exists e; (split; [exact He|]); apply (der_refs_under n e 0); exact H.
Qed.

Lemma sel_filter c fc :
  sel c fc = filter (fun s => cat_eqb (scat s) c) (filter nonempty (sorted_syms fc)).
Proof. apply filter_comm. Qed.

Lemma sel_In c fc s : In s (sel c fc) <-> In s (annotate fc) /\ s_empty s = false /\ scat s = c.
Proof.
  rewrite sel_filter, !filter_In, cat_eqb_eq. unfold nonempty. rewrite negb_true_iff.
  assert (P : In s (sorted_syms fc) <-> In s (annotate fc))
    by (split; apply Permutation_in; [|apply Permutation_sym]; apply sort_perm).
  tauto.
Qed.

Lemma sel_partition fc :
  Permutation (flat_map (fun c => sel c fc) all_cats) (filter nonempty (annotate fc)).
Proof.
  erewrite flat_map_ext; [|intros c; apply sel_filter].
  eapply Permutation_trans; [apply (partition_perm scat)|apply filter_perm, sort_perm].
Qed.

Lemma sel_sorted c fc : StronglySorted ord_le (sel c fc).
Proof. apply filter_sorted, filter_sorted, sort_sorted. Qed.

(* the two categories at the end of the chain: neither constant, parameter nor input *)
Definition dynamic (s : sym) : Prop :=
  ~ In Kconstant (s_pref s) /\ ~ In Kparameter (s_pref s) /\ ~ In Kinput (s_pref s).

Lemma dynamic_annotate1 ds s : dynamic (annotate1 ds s) <-> dynamic s.
Proof. unfold dynamic. rewrite !annotate1_pref_other by discriminate. reflexivity. Qed.

Lemma scat_dynamic s : dynamic s -> scat s = if has Kstate (s_pref s) then CState else CAlg.
Proof.
  intros (Hc%has_false & Hp%has_false & Hi%has_false). unfold scat, cat_of. rewrite Hc, Hp, Hi. reflexivity.
Qed.

Lemma scat_state_or_alg s : scat s = CState \/ scat s = CAlg <-> dynamic s.
Proof.
  split.
  - pose proof (cat_of_inv (s_pref s) (s_ty s)) as I. fold (scat s) in I.
    intros [E|E]; rewrite E in I; destruct I as (Hc & Hp & Hi & _); repeat split; assumption.
  - intros D. rewrite (scat_dynamic s D). destruct (has Kstate (s_pref s)); auto.
Qed.

Lemma scat_state s : scat s = CState <-> dynamic s /\ In Kstate (s_pref s).
Proof.
  split.
  - intros E. split; [apply scat_state_or_alg; left; exact E|].
    pose proof (cat_of_inv (s_pref s) (s_ty s)) as I. fold (scat s) in I. rewrite E in I. apply I.
  - intros (D & Hs%has_In). rewrite (scat_dynamic s D), Hs. reflexivity.
Qed.

Lemma state_iff fc s0 :
  In s0 (f_syms fc) ->
  In (annotate1 (all_der_refs fc) s0) (m_states fc) <->
    s_empty s0 = false /\ ~ In Kconstant (s_pref s0) /\ ~ In Kparameter (s_pref s0) /\
    ~ In Kinput (s_pref s0) /\
    (In Kstate (s_pref s0) \/ exists e, In e (f_exprs fc) /\ under (s_name s0) false e).
Proof.
  intros Hin. unfold m_states. split.
  - intros H. apply sel_In in H as (_ & He & Hc). rewrite annotate1_empty in He.
    apply scat_state in Hc as (D & Hs). apply dynamic_annotate1 in D as (Hc & Hp & Hi).
    apply annotate1_state in Hs. rewrite all_der_refs_under in Hs. auto 6.
  - intros (He & Hc & Hp & Hi & Hs).
    apply sel_In. split; [apply in_map, Hin|]. split; [rewrite annotate1_empty; exact He|].
    apply scat_state. split; [apply dynamic_annotate1; repeat split; assumption|].
    apply annotate1_state. rewrite all_der_refs_under. exact Hs.
Qed.

Lemma outputs_In fc n :
  In n (m_outputs fc) <->
  exists s, (In s (m_states fc) \/ In s (m_alg fc)) /\ In Koutput (s_pref s) /\ s_name s = n.
Proof.
  unfold m_outputs. rewrite in_map_iff. split.
  - intros (s & E & H). apply filter_In in H as [H O].
    exists s. apply in_app_or in H. apply has_In in O. auto.
  - intros (s & H & O & E). exists s. split; [exact E|].
    apply filter_In. split; [apply in_or_app, H|apply has_In, O].
Qed.

(* the error outcome (known finding output-string-variable).  The recorded input class: a non-empty
   String variable with the output prefix that is not a constant, parameter or input *)
Definition bad_sym (s : sym) : Prop :=
  In Koutput (s_pref s) /\ s_ty s = TString /\ s_empty s = false /\
  ~ In Kconstant (s_pref s) /\ ~ In Kparameter (s_pref s) /\ ~ In Kinput (s_pref s).

Lemma is_str_eq t : is_str t = true <-> t = TString.
Proof. destruct t; simpl; split; intro H; try reflexivity; discriminate H. Qed.

Lemma bad_sym_annotated ds s0 :
  bad_sym s0 <->
  out_str (annotate1 ds s0) = true /\ s_empty (annotate1 ds s0) = false /\
  (scat (annotate1 ds s0) = CState \/ scat (annotate1 ds s0) = CAlg).
Proof.
  unfold bad_sym, out_str. rewrite annotate1_ty, annotate1_empty. split.
  - intros (O & S & He & D). split; [apply andb_true_iff; split|split].
    + apply has_In, annotate1_pref_other; [discriminate|exact O].
    + apply is_str_eq, S.
    + exact He.
    + apply scat_state_or_alg, dynamic_annotate1, D.
  - intros (OS & He & C). apply andb_true_iff in OS as [O S]. apply scat_state_or_alg, dynamic_annotate1 in C.
    apply has_In in O. apply annotate1_pref_other in O; [|discriminate]. apply is_str_eq in S. auto.
Qed.

Lemma gen_error_iff fc :
  gen_error fc = true <-> exists s0, In s0 (f_syms fc) /\ bad_sym s0.
Proof.
  unfold gen_error, m_states, m_alg. rewrite existsb_exists. split.
  - intros (s & Hin & Ho).
    assert (H : In s (annotate fc) /\ s_empty s = false /\ (scat s = CState \/ scat s = CAlg)).
    { apply in_app_or in Hin as [H|H]; apply sel_In in H as (Ha & He & Hc); auto. }
    destruct H as (Ha & He & Hc). apply in_map_iff in Ha as (s0 & <- & H0).
    exists s0. split; [exact H0|]. apply (bad_sym_annotated (all_der_refs fc)). auto.
  - intros (s0 & H0 & Hb). apply (bad_sym_annotated (all_der_refs fc)) in Hb as (Ho & He & Hc).
    exists (annotate1 (all_der_refs fc) s0). split; [|exact Ho]. apply (in_map (annotate1 (all_der_refs fc))) in H0.
    apply in_or_app. destruct Hc as [Hc|Hc]; [left|right]; apply sel_In; auto.
Qed.

Lemma generate_none_iff fc :
  generate fc = None <-> exists s, In s (f_syms fc) /\ bad_sym s.
Proof.
  rewrite <- gen_error_iff. unfold generate. destruct (gen_error fc); split; intro H;
    try reflexivity; discriminate H.
Qed.

Lemma generate_some fc :
  (forall s, In s (f_syms fc) -> ~ bad_sym s) -> generate fc = Some (lists fc).
Proof.
  intros H. unfold generate. destruct (gen_error fc) eqn:E; [|reflexivity].
  apply gen_error_iff in E. destruct E as (s & Hin & Hb). exfalso. exact (H s Hin Hb).
Qed.

Lemma generate_none fc :
  (exists s, In s (f_syms fc) /\ bad_sym s) -> generate fc = None.
Proof. apply generate_none_iff. Qed.
