(* C13 — proofs about Model/C13_poly.v: the mathematical content of the affinity test *)
From Coq Require Import QArith Qcanon List Bool ZArith Lia.
From PV Require Import Model.C13_metadata Model.C13_poly Proofs.C13_metadata.
Import ListNotations.
Local Open Scope Qc_scope.

Lemma drop1_length i m m' : In m' (drop1 i m) -> S (length m') = length m.
Proof.
  revert m'. induction m as [|x m IH]; intros m' H; simpl in *; [contradiction|].
  apply in_app_or in H. destruct H as [H|H].
  - destruct (Nat.eqb x i); simpl in H; [|contradiction]. destruct H as [<-|[]]. reflexivity.
  - apply in_map_iff in H. destruct H as [m0 [<- H]]. simpl. now rewrite (IH _ H).
Qed.

Lemma drop1_head x m : In m (drop1 x (x :: m)).
Proof. simpl. rewrite Nat.eqb_refl. now left. Qed.

Lemma pd_in i c m m' (P : poly) : In (c, m) P -> In m' (drop1 i m) -> In (c, m') (pd i P).
Proof.
  intros H1 H2. unfold pd. apply in_flat_map. exists (c, m). split; [exact H1|].
  simpl. apply in_map_iff. now exists m'.
Qed.

Lemma pd_inv i c m' (P : poly) : In (c, m') (pd i P) -> exists m, In (c, m) P /\ In m' (drop1 i m).
Proof.
  unfold pd. intros H. apply in_flat_map in H. destruct H as [[c0 m] [H1 H2]]. simpl in H2.
  apply in_map_iff in H2. destruct H2 as [m0 [E H2]]. inversion E; subst. now exists m.
Qed.

Lemma hess_zero_iff_degree P : hess_zero P <-> deg_le1 P = true.
Proof.
  unfold hess_zero, deg_le1. split.
  - intros H. apply forallb_forall. intros [c m] Hin. simpl.
    destruct m as [|x [|y m]]; try reflexivity. exfalso.
    assert (I1 : In (c, y :: m) (pd x P)) by (eapply pd_in; [exact Hin|apply drop1_head]).
    assert (I2 : In (c, m) (pd y (pd x P))) by (eapply pd_in; [exact I1|apply drop1_head]).
    rewrite (H y x) in I2. exact I2.
  - intros H i j. destruct (pd i (pd j P)) as [|[c m2] l] eqn:E; [reflexivity|exfalso].
    assert (I2 : In (c, m2) (pd i (pd j P))) by (rewrite E; now left).
    apply pd_inv in I2. destruct I2 as [m1 [I1 D2]].
    apply pd_inv in I1. destruct I1 as [m [I0 D1]].
    rewrite forallb_forall in H. specialize (H _ I0). simpl in H. apply Nat.leb_le in H.
    apply drop1_length in D1, D2. lia.
Qed.

Lemma mono_pfree m : pfree (mono_aexp m) = Nat.eqb (length m) 0.
Proof. destruct m; reflexivity. Qed.

Lemma mono_affine m : affine (mono_aexp m) = Nat.leb (length m) 1.
Proof.
  destruct m as [|x m]; [reflexivity|]. simpl. rewrite mono_pfree. destruct m; reflexivity.
Qed.

Lemma term_affine t : affine (term_aexp t) = Nat.leb (length (snd t)) 1.
Proof.
  unfold term_aexp. simpl. rewrite mono_affine, mono_pfree.
  destruct (snd t) as [|x [|y m]]; reflexivity.
Qed.

Lemma degree_iff_affine P : deg_le1 P = affine (to_aexp P).
Proof.
  unfold deg_le1. induction P as [|t P IH]; [reflexivity|].
  change (to_aexp (t :: P)) with (Add (term_aexp t) (to_aexp P)).
  change (affine (Add (term_aexp t) (to_aexp P))) with (affine (term_aexp t) && affine (to_aexp P)).
  simpl forallb. now rewrite IH, term_affine.
Qed.

(* induction over the expressions that have an expansion *)
Lemma pnorm_ind (R : aexp -> list (Qc * list nat) -> Prop) :
  (forall c, R (Cst c) [(c, [])]) ->
  (forall i, R (Par i) [(1, [i])]) ->
  (forall a b P Q, pnorm a = Some P -> pnorm b = Some Q -> R a P -> R b Q -> R (Add a b) (P ++ Q)) ->
  (forall a b P Q, pnorm a = Some P -> pnorm b = Some Q -> R a P -> R b Q ->
     R (Sub a b) (P ++ pscale (-(1)) Q)) ->
  (forall a b P Q, pnorm a = Some P -> pnorm b = Some Q -> R a P -> R b Q -> R (Mul a b) (pmul P Q)) ->
  (forall a b P, pfree b = true -> pnorm a = Some P -> R a P -> R (Div a b) (pscale (/ v0 b) P)) ->
  (forall a P, pnorm a = Some P -> R a P -> R (Neg a) (pscale (-(1)) P)) ->
  (forall a n P, pnorm a = Some P -> R a P -> R (Pow a n) (ppow P n)) ->
  forall e P, pnorm e = Some P -> R e P.
Proof.
  intros HC HP HA HS HM HD HN HW.
  induction e; intros P H; cbn [pnorm] in H; try discriminate H.
  - injection H as <-. apply HC.
  - injection H as <-. apply HP.
  - destruct (pnorm e1) as [P1|] eqn:N1, (pnorm e2) as [P2|] eqn:N2; try discriminate H.
    injection H as <-. exact (HA _ _ _ _ N1 N2 (IHe1 _ eq_refl) (IHe2 _ eq_refl)).
  - destruct (pnorm e1) as [P1|] eqn:N1, (pnorm e2) as [P2|] eqn:N2; try discriminate H.
    injection H as <-. exact (HS _ _ _ _ N1 N2 (IHe1 _ eq_refl) (IHe2 _ eq_refl)).
  - destruct (pnorm e1) as [P1|] eqn:N1, (pnorm e2) as [P2|] eqn:N2; try discriminate H.
    injection H as <-. exact (HM _ _ _ _ N1 N2 (IHe1 _ eq_refl) (IHe2 _ eq_refl)).
  - destruct (pfree e2) eqn:F; [|discriminate H].
    destruct (pnorm e1) as [P1|] eqn:N1; [|discriminate H].
    injection H as <-. exact (HD _ _ _ F N1 (IHe1 _ eq_refl)).
  - destruct (pnorm e) as [P1|] eqn:N1; [|discriminate H].
    injection H as <-. exact (HN _ _ N1 (IHe _ eq_refl)).
  - destruct (pnorm e) as [P1|] eqn:N1; [|discriminate H].
    injection H as <-. exact (HW _ _ _ N1 (IHe _ eq_refl)).
Qed.

(* The value at p, the value at 0 and the i-th derivative at 0 of an expansion are sums over its terms with the
   weights meval p, meval [] and dm0 i on the monomials.  Linearity holds for any weight, the product rule for
   a multiplicative weight and for a weight that obeys the Leibniz rule over another; an expansion of degree
   <= 1 is its own first-order Taylor polynomial at 0, which is why the rebuild is right when the test passes. *)
Definition psum (w : list nat -> Qc) (P : list (Qc * list nat)) : Qc :=
  fold_right (fun t acc => fst t * w (snd t) + acc) 0 P.

Lemma psum_cons w t P : psum w (t :: P) = fst t * w (snd t) + psum w P.
Proof. reflexivity. Qed.

Lemma psum_app w P Q : psum w (P ++ Q) = psum w P + psum w Q.
Proof. induction P as [|t P IH]; simpl; [ring|]. rewrite IH. ring. Qed.

Lemma psum_scale w c P : psum w (pscale c P) = c * psum w P.
Proof. induction P as [|t P IH]; simpl; [ring|]. rewrite IH. ring. Qed.

Lemma psum_pmul_leibniz w dw P Q :
  (forall m n, dw (m ++ n) = dw m * w n + w m * dw n) ->
  psum dw (pmul P Q) = psum dw P * psum w Q + psum w P * psum dw Q.
Proof.
  intros L. unfold pmul. induction P as [|t P IH]; [simpl; ring|].
  cbn [flat_map]. rewrite psum_app, IH, !psum_cons.
  assert (E : psum dw (map (fun u => (fst t * fst u, snd t ++ snd u)) Q)
              = fst t * dw (snd t) * psum w Q + fst t * w (snd t) * psum dw Q).
  { clear IH. induction Q as [|u Q IHQ]; [simpl; ring|].
    cbn [map]. rewrite !psum_cons. cbn [fst snd]. rewrite IHQ, L. ring. }
  rewrite E. ring.
Qed.

Lemma psum_pmul w P Q :
  (forall m n, w (m ++ n) = w m * w n) -> psum w (pmul P Q) = psum w P * psum w Q.
Proof.
  intros M. unfold pmul. induction P as [|t P IH]; [simpl; ring|].
  cbn [flat_map]. rewrite psum_app, IH, psum_cons.
  assert (E : psum w (map (fun u => (fst t * fst u, snd t ++ snd u)) Q) = fst t * w (snd t) * psum w Q).
  { clear IH. induction Q as [|u Q IHQ]; [simpl; ring|].
    cbn [map]. rewrite !psum_cons. cbn [fst snd]. rewrite IHQ, M. ring. }
  rewrite E. ring.
Qed.

Lemma meval_app p m n : meval p (m ++ n) = meval p m * meval p n.
Proof. induction m as [|x m IH]; simpl; [ring|]. rewrite IH. ring. Qed.

Lemma peval_pow p P n : psum (meval p) (ppow P n) = Qcpower (psum (meval p) P) n.
Proof. induction n; simpl; [ring|]. now rewrite (psum_pmul _ _ _ (meval_app p)), IHn. Qed.

Definition dm0 (i : nat) (m : list nat) : Qc :=
  match m with [x] => if Nat.eqb i x then 1 else 0 | _ => 0 end.

Lemma meval_nil x m : meval [] (x :: m) = 0.
Proof. simpl. destruct x; ring. Qed.

Lemma dm0_app i m n : dm0 i (m ++ n) = dm0 i m * meval [] n + meval [] m * dm0 i n.
Proof.
  destruct m as [|x [|y m]]; cbn [app]; [simpl; ring| |rewrite meval_nil; simpl; ring].
  rewrite meval_nil. destruct n; [|rewrite meval_nil]; simpl; ring.
Qed.

Lemma qnat_S n : qnat (S n) = qnat n + 1.
Proof.
  unfold qnat. apply Qc_is_canon.
  change (Qred (inject_Z (Z.of_nat (S n))) == Qred (Qred (inject_Z (Z.of_nat n)) + 1%Q)).
  rewrite !Qred_correct. unfold inject_Z, Qeq, Qplus. cbn [Qnum Qden]. rewrite Nat2Z.inj_succ. lia.
Qed.

Lemma qnat_1 : qnat 1 = 1.
Proof. apply Qc_is_canon. reflexivity. Qed.

Lemma pd0_pow i P n :
  psum (dm0 i) (ppow P n)
  = match n with O => 0 | S m => qnat n * Qcpower (psum (meval []) P) m * psum (dm0 i) P end.
Proof.
  induction n as [|m IH]; [simpl; ring|].
  cbn [ppow]. rewrite (psum_pmul_leibniz _ _ _ _ (dm0_app i)), peval_pow, IH. destruct m as [|k].
  - rewrite qnat_1. simpl. ring.
  - rewrite (qnat_S (S k)). simpl. ring.
Qed.

(* no division-by-zero hypothesis: a parameter-free divisor is replaced by its value, whatever it is *)
Lemma pnorm_eval p e P : pnorm e = Some P -> eval p e = peval p P.
Proof.
  change (peval p) with (psum (meval p)). revert e P. apply pnorm_ind; simpl.
  - intros c. ring.
  - intros i. ring.
  - intros a b P Q _ _ -> ->. now rewrite psum_app.
  - intros a b P Q _ _ -> ->. rewrite psum_app, psum_scale. ring.
  - intros a b P Q _ _ -> ->. now rewrite (psum_pmul _ _ _ (meval_app p)).
  - intros a b P F _ ->. rewrite psum_scale, (pfree_eval b p F). unfold Qcdiv. ring.
  - intros a P _ ->. rewrite psum_scale. ring.
  - intros a n P _ ->. now rewrite peval_pow.
Qed.

Lemma pnorm_v0 e P : pnorm e = Some P -> v0 e = psum (meval []) P.
Proof. exact (pnorm_eval [] e P). Qed.

Lemma pnorm_d0 p e P : pnorm e = Some P -> safe p e = true -> forall i, d0 e i = psum (dm0 i) P.
Proof.
  revert e P.
  apply (pnorm_ind (fun e P => safe p e = true -> forall i, d0 e i = psum (dm0 i) P)); simpl.
  - intros c _ i. ring.
  - intros j _ i. ring.
  - intros a b P Q _ _ IHa IHb S i. apply andb_prop in S as [Sa Sb].
    now rewrite psum_app, (IHa Sa), (IHb Sb).
  - intros a b P Q _ _ IHa IHb S i. apply andb_prop in S as [Sa Sb].
    rewrite psum_app, psum_scale, (IHa Sa), (IHb Sb). ring.
  - intros a b P Q Na Nb IHa IHb S i. apply andb_prop in S as [Sa Sb].
    now rewrite (psum_pmul_leibniz _ _ _ _ (dm0_app i)), (IHa Sa), (IHb Sb), (pnorm_v0 a P Na), (pnorm_v0 b Q Nb).
  - intros a b P F _ IHa S i. apply andb_prop in S as [S Sz].
    apply andb_prop in S as [Sa _].
    apply qnz_neq in Sz. rewrite (pfree_eval b p F) in Sz.
    rewrite psum_scale, <- (IHa Sa), (pfree_d0 b i F). field. exact Sz.
  - intros a P _ IHa S i. rewrite psum_scale, (IHa S). ring.
  - intros a n P Na IHa S i. rewrite pd0_pow, <- (pnorm_v0 a P Na), (IHa S). destruct n; reflexivity.
Qed.

Lemma to_aexp_eval p P : eval p (to_aexp P) = peval p P.
Proof.
  induction P as [|[c m] P IH]; [reflexivity|].
  change (to_aexp ((c, m) :: P)) with (Add (term_aexp (c, m)) (to_aexp P)).
  simpl. rewrite IH. f_equal. f_equal. clear. induction m as [|x m IH]; simpl; [reflexivity|].
  now rewrite IH.
Qed.

Lemma to_aexp_safe p P : safe p (to_aexp P) = true.
Proof.
  induction P as [|[c m] P IH]; [reflexivity|].
  change (to_aexp ((c, m) :: P)) with (Add (term_aexp (c, m)) (to_aexp P)).
  simpl. rewrite IH, andb_true_r. clear. induction m as [|x m IH]; simpl; [reflexivity|exact IH].
Qed.

Lemma test_sound_poly e P p :
  pnorm e = Some P -> safe p e = true -> hess_zero P ->
  affine (to_aexp P) = true /\ rebuild (to_aexp P) p = eval p e.
Proof.
  intros N S H. apply hess_zero_iff_degree in H. rewrite degree_iff_affine in H. split; [exact H|].
  rewrite (affine_rebuild _ p H (to_aexp_safe p P)), to_aexp_eval. symmetry. now apply pnorm_eval.
Qed.

Definition deg_le (d : nat) (P : list (Qc * list nat)) : bool :=
  forallb (fun t => Nat.leb (length (snd t)) d) P.

Lemma deg_le1_deg_le P : deg_le1 P = deg_le 1 P.
Proof. reflexivity. Qed.

Lemma deg_le_app d P Q : deg_le d P = true -> deg_le d Q = true -> deg_le d (P ++ Q) = true.
Proof. unfold deg_le. intros HP HQ. now rewrite forallb_app, HP, HQ. Qed.

Lemma deg_le_scale d c P : deg_le d (pscale c P) = deg_le d P.
Proof. unfold deg_le, pscale. induction P as [|t P IH]; simpl; congruence. Qed.

Lemma deg_le_mul a b P Q : deg_le a P = true -> deg_le b Q = true -> deg_le (a + b) (pmul P Q) = true.
Proof.
  unfold deg_le, pmul. rewrite !forallb_forall. intros HP HQ t Ht.
  apply in_flat_map in Ht. destruct Ht as [t1 [I1 Ht]]. apply in_map_iff in Ht.
  destruct Ht as [t2 [<- I2]]. simpl. rewrite app_length.
  specialize (HP _ I1). specialize (HQ _ I2). apply Nat.leb_le in HP, HQ. apply Nat.leb_le. lia.
Qed.

Lemma deg_le_pow P n : deg_le 0 P = true -> deg_le 0 (ppow P n) = true.
Proof. intros H. induction n; [reflexivity|]. exact (deg_le_mul 0 0 _ _ H IHn). Qed.

Lemma deg_le_0_1 P : deg_le 0 P = true -> deg_le 1 P = true.
Proof.
  unfold deg_le. rewrite !forallb_forall. intros H t Ht. specialize (H t Ht).
  apply Nat.leb_le in H. apply Nat.leb_le. lia.
Qed.

(* the affine class passes the test (C13_test_sound_partial, 3rd part) *)
Lemma pnorm_degree e P :
  pnorm e = Some P ->
  (pfree e = true -> deg_le 0 P = true) /\ (affine e = true -> deg_le1 P = true).
Proof.
  rewrite deg_le1_deg_le. revert e P. apply pnorm_ind; simpl.
  - now split.
  - now split.
  - intros a b P Q _ _ [Fa Aa] [Fb Ab].
    split; intros H; apply andb_prop in H; destruct H; apply deg_le_app; auto.
  - intros a b P Q _ _ [Fa Aa] [Fb Ab].
    split; intros H; apply andb_prop in H; destruct H; apply deg_le_app; rewrite ?deg_le_scale; auto.
  - intros a b P Q _ _ [Fa Aa] [Fb Ab]. split; intros H.
    + apply andb_prop in H. destruct H. apply (deg_le_mul 0 0); auto.
    + apply orb_prop in H as [H|H]; apply andb_prop in H; destruct H.
      * apply (deg_le_mul 0 1); auto.
      * apply (deg_le_mul 1 0); auto.
  - intros a b P _ _ [Fa Aa].
    split; intros H; apply andb_prop in H; destruct H; rewrite deg_le_scale; auto.
  - intros a P _ [Fa Aa]. split; intros H; rewrite deg_le_scale; auto.
  - intros a n P _ [Fa _]. split; intros H; [|apply deg_le_0_1]; apply deg_le_pow; auto.
Qed.

(* a degree <= 1 expansion is its own first-order Taylor polynomial at 0 *)
Lemma deg_le1_taylor p P :
  deg_le1 P = true -> psum (meval p) P = dot (fun i => psum (dm0 i) P) p 0 + psum (meval []) P.
Proof.
  unfold deg_le1. induction P as [|[c m] P IH]; intros H.
  - simpl. rewrite dot_zero. ring.
  - cbn [forallb] in H. apply andb_prop in H as [H1 H2]. simpl in H1.
    rewrite !psum_cons, (IH H2). cbn [fst snd].
    change (dot (fun i => psum (dm0 i) ((c, m) :: P)) p 0)
      with (dot (fun i => c * dm0 i m + psum (dm0 i) P) p 0).
    rewrite dot_add, dot_scale. destruct m as [|x [|y m]]; [| |discriminate].
    + simpl. rewrite dot_zero. ring.
    + change (fun i => dm0 i [x]) with (fun i => if Nat.eqb i x then 1 else 0).
      rewrite dot_delta, meval_nil. simpl. ring.
Qed.

(* C13_test_sound_partial, last part *)
Lemma test_sound_rebuild e P p :
  pnorm e = Some P -> safe p e = true -> hess_zero P -> rebuild e p = eval p e.
Proof.
  intros N S H. apply hess_zero_iff_degree in H. unfold rebuild.
  rewrite (dot_ext _ (fun i => psum (dm0 i) P)) by exact (pnorm_d0 p e P N S).
  rewrite (pnorm_v0 e P N), <- (deg_le1_taylor p P H). symmetry. exact (pnorm_eval p e P N).
Qed.

Lemma cell_val_rb_test p c :
  cell_test c = true -> cell_safe p c = true -> cell_val true p c = cell_val false p c.
Proof.
  destruct c as [x|e]; simpl; [reflexivity|]. intros T S.
  destruct (pnorm e) as [P|] eqn:N; [|discriminate].
  f_equal. apply (test_sound_rebuild e P p N S). now apply hess_zero_iff_degree.
Qed.

(* witnesses of C13_numeric_test_refuted (p*q*r, seeded C13/m1) and C13_blockdiag_test_refuted (p*q, seeded C19/m1) *)
Definition pqr : aexp := Mul (Mul (Par 0) (Par 1)) (Par 2).
Definition pq : aexp := Mul (Par 0) (Par 1).
Definition ones3 : list Qc := [1; 1; 1].

Lemma Qc_neq_of_bool a b : Qc_eq_bool a b = false -> a <> b.
Proof.
  intros H E. subst b. unfold Qc_eq_bool in H. destruct (Qc_eq_dec a a); [discriminate|congruence].
Qed.
