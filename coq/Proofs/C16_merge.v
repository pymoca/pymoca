(* C16 — proofs about Model/C16_merge.v: each merged attribute is a max / min / or fold over the
   aliases that are not skipped.  Stdlib only. *)
From Coq Require Import QArith Qcanon List Bool Permutation.
From PV Require Import Model.C16_merge.
Import ListNotations.

Lemma forallb_perm {A} (p : A -> bool) l l' : Permutation l l' -> forallb p l = forallb p l'.
Proof.
  induction 1; simpl; try congruence.
  rewrite !andb_assoc, (andb_comm (p y)). reflexivity.
Qed.

Lemma existsb_perm {X} (p : X -> bool) l l' : Permutation l l' -> existsb p l = existsb p l'.
Proof.
  induction 1; simpl; try congruence.
  rewrite !orb_assoc, (orb_comm (p y)). reflexivity.
Qed.

Lemma fold_select {X} (f : X -> X -> X) :
  (forall a b, f a b = a \/ f a b = b) -> forall l a, In (fold_left f l a) (a :: l).
Proof.
  intros Hf. induction l as [|x l IH]; intros a; [left; reflexivity|].
  destruct (IH (f a x)) as [H|H]; [|right; right; exact H].
  cbn [fold_left]. rewrite <- H. destruct (Hf a x) as [E|E]; rewrite E; [left|right; left]; reflexivity.
Qed.

Record total_order {A : Type} (leb : A -> A -> bool) : Prop := TotalOrder {
  to_refl : forall a, leb a a = true;
  to_antisym : forall a b, leb a b = true -> leb b a = true -> a = b;
  to_trans : forall a b c, leb a b = true -> leb b c = true -> leb a c = true;
  to_total : forall a b, leb a b = true \/ leb b a = true }.

Lemma total_order_flip {A} (leb : A -> A -> bool) :
  total_order leb -> total_order (fun a b => leb b a).
Proof.
  intros [R S T L]. constructor; eauto.
Qed.

Section TotalOrder.
  Context {A : Type} (leb : A -> A -> bool).
  Hypothesis ord : total_order leb.
  Let leb_refl := to_refl leb ord.
  Let leb_antisym := to_antisym leb ord.
  Let leb_trans := to_trans leb ord.
  Let leb_total := to_total leb ord.

  Lemma leb_false_flip a b : leb a b = false -> leb b a = true.
  Proof. intros H. destruct (leb_total a b) as [H'|H']; congruence. Qed.

  (* least upper bound, as a boolean equation *)
  Lemma gmax_le a b c : leb (gmax leb a b) c = leb a c && leb b c.
  Proof.
    unfold gmax. destruct (leb a b) eqn:Hab.
    - destruct (leb b c) eqn:Hbc.
      + rewrite (leb_trans _ _ _ Hab Hbc). reflexivity.
      + rewrite andb_false_r. reflexivity.
    - apply leb_false_flip in Hab. destruct (leb a c) eqn:Hac.
      + rewrite (leb_trans _ _ _ Hab Hac). reflexivity.
      + reflexivity.
  Qed.

  Lemma gmax_cases a b : gmax leb a b = a \/ gmax leb a b = b.
  Proof. unfold gmax. destruct (leb a b); auto. Qed.
  Lemma gmin_cases a b : gmin leb a b = a \/ gmin leb a b = b.
  Proof. unfold gmin. destruct (leb a b); auto. Qed.

  Lemma eq_by_upper m m' : (forall c, leb m c = leb m' c) -> m = m'.
  Proof.
    intros H. apply leb_antisym.
    - rewrite H. apply leb_refl.
    - rewrite <- H. apply leb_refl.
  Qed.

  Lemma gmax_comm a b : gmax leb a b = gmax leb b a.
  Proof. apply eq_by_upper. intros c. rewrite !gmax_le. apply andb_comm. Qed.

  Definition fmax (a : A) (l : list A) : A := fold_left (gmax leb) l a.
  Definition fmin (a : A) (l : list A) : A := fold_left (gmin leb) l a.

  Lemma fmax_le l : forall a c, leb (fmax a l) c = leb a c && forallb (fun x => leb x c) l.
  Proof.
    unfold fmax. induction l as [|x l IH]; intros a c; simpl.
    - rewrite andb_true_r. reflexivity.
    - rewrite IH, gmax_le, andb_assoc. reflexivity.
  Qed.

  Lemma fmax_in l : forall a, In (fmax a l) (a :: l).
  Proof. exact (fold_select (gmax leb) gmax_cases l). Qed.
  Lemma fmin_in l : forall a, In (fmin a l) (a :: l).
  Proof. exact (fold_select (gmin leb) gmin_cases l). Qed.

  Lemma fmax_greatest a l : In (fmax a l) (a :: l) /\ forall x, In x (a :: l) -> leb x (fmax a l) = true.
  Proof.
    split; [apply fmax_in|]. intros x Hx.
    pose proof (fmax_le l a (fmax a l)) as H. rewrite leb_refl in H. symmetry in H.
    apply andb_true_iff in H as [Ha Hl]. destruct Hx as [<-|Hx]; [exact Ha|].
    rewrite forallb_forall in Hl. apply Hl, Hx.
  Qed.

  Lemma fmax_perm a l l' : Permutation l l' -> fmax a l = fmax a l'.
  Proof. intros P. apply eq_by_upper. intros c. rewrite !fmax_le, (forallb_perm _ _ _ P). reflexivity. Qed.
End TotalOrder.

(* min is max in the reversed order, so every fact about gmax/fmax is one about gmin/fmin *)
Section Min.
  Context {A : Type} (leb : A -> A -> bool).
  Hypothesis ord : total_order leb.
  Let geb (a b : A) := leb b a.
  Let dual : total_order geb := total_order_flip leb ord.

  (* unfolded, [gmin leb a b] is [gmax geb b a]; hence, by commutativity: *)
  Lemma gmin_dual a b : gmin leb a b = gmax geb a b.
  Proof. exact (gmax_comm geb dual b a). Qed.

  Lemma fmin_dual l : forall a, fmin leb a l = fmax geb a l.
  Proof.
    unfold fmin, fmax. induction l as [|x l IH]; intros a; [reflexivity|].
    cbn [fold_left]. rewrite gmin_dual. apply IH.
  Qed.

  Lemma gmin_le a b c : leb c (gmin leb a b) = leb c a && leb c b.
  Proof. rewrite gmin_dual. exact (gmax_le geb dual a b c). Qed.

  Lemma fmin_le l : forall a c, leb c (fmin leb a l) = leb c a && forallb (fun x => leb c x) l.
  Proof. intros a c. rewrite fmin_dual. exact (fmax_le geb dual l a c). Qed.

  Lemma fmin_least a l :
    In (fmin leb a l) (a :: l) /\ forall x, In x (a :: l) -> leb (fmin leb a l) x = true.
  Proof. rewrite fmin_dual. exact (fmax_greatest geb dual a l). Qed.

  Lemma fmin_perm a l l' : Permutation l l' -> fmin leb a l = fmin leb a l'.
  Proof. rewrite !fmin_dual. exact (fmax_perm geb dual a l l'). Qed.
End Min.

Lemma qleb_le a b : qleb a b = true <-> (a <= b)%Qc.
Proof.
  unfold qleb. rewrite Qcle_alt. destruct (a ?= b)%Qc; split; intros; try congruence; try discriminate.
Qed.

Lemma qleb_refl a : qleb a a = true.
Proof. apply qleb_le, Qcle_refl. Qed.
Lemma qleb_antisym a b : qleb a b = true -> qleb b a = true -> a = b.
Proof. intros H1%qleb_le H2%qleb_le. exact (Qcle_antisym a b H1 H2). Qed.
Lemma qleb_trans a b c : qleb a b = true -> qleb b c = true -> qleb a c = true.
Proof. intros H1%qleb_le H2%qleb_le. apply qleb_le. exact (Qcle_trans a b c H1 H2). Qed.
Lemma qleb_total a b : qleb a b = true \/ qleb b a = true.
Proof.
  destruct (Qclt_le_dec a b) as [H|H]; [left; apply qleb_le, Qclt_le_weak, H|right; apply qleb_le, H].
Qed.

Lemma qleb_opp a b : qleb (- a) (- b) = qleb b a.
Proof.
  destruct (qleb b a) eqn:H.
  - apply qleb_le, Qcopp_le_compat, qleb_le, H.
  - destruct (qleb (- a) (- b)) eqn:H'; [|reflexivity].
    apply qleb_le, Qcopp_le_compat in H'. rewrite !Qcopp_involutive in H'.
    apply qleb_le in H'. congruence.
Qed.

Lemma eopp_invol e : eopp (eopp e) = e.
Proof. destruct e; simpl; try reflexivity. rewrite Qcopp_involutive. reflexivity. Qed.
Lemma eleb_opp a b : eleb (eopp a) (eopp b) = eleb b a.
Proof. destruct a, b; simpl; try reflexivity. apply qleb_opp. Qed.

Lemma eleb_order : total_order eleb.
Proof.
  constructor.
  - intros a. destruct a; simpl; auto using qleb_refl.
  - intros a b. destruct a, b; simpl; intros; try discriminate; try reflexivity. f_equal. apply qleb_antisym; auto.
  - intros a b c. destruct a, b, c; simpl; intros; try discriminate; try reflexivity. eapply qleb_trans; eauto.
  - intros a b. destruct a, b; simpl; auto using qleb_total.
Qed.
Lemma qleb_order : total_order qleb.
Proof. constructor; [apply qleb_refl|apply qleb_antisym|apply qleb_trans|apply qleb_total]. Qed.

Definition live (als : list alias) : list alias := filter (fun a => negb (skipped a)) als.

Lemma live_cons a als : live (a :: als) = if skipped a then live als else a :: live als.
Proof. unfold live. cbn [filter]. destruct (skipped a); reflexivity. Qed.

Lemma merge_cons c a als : merge c (a :: als) = merge (step c a) als.
Proof. reflexivity. Qed.

Lemma step_skipped c a : skipped a = true -> step c a = c.
Proof. intros H. unfold step. rewrite H. reflexivity. Qed.

Lemma merge_live c als : merge c als = merge c (live als).
Proof.
  revert c. induction als as [|a als IH]; intros c; [reflexivity|].
  rewrite live_cons, merge_cons. destruct (skipped a) eqn:Hs.
  - rewrite (step_skipped c a Hs). apply IH.
  - rewrite merge_cons. apply IH.
Qed.

Lemma merge_fields c als :
  vmin (merge c als) = fmax eleb (vmin c) (map smin (live als)) /\
  vmax (merge c als) = fmin eleb (vmax c) (map smax (live als)) /\
  vnom (merge c als) = fmax qleb (vnom c) (map (fun a => vnom (avar a)) (live als)) /\
  vfixed (merge c als) = vfixed c || existsb (fun a => vfixed (avar a)) (live als).
Proof.
  revert c. induction als as [|a als IH]; intros c.
  - simpl. rewrite orb_false_r. auto.
  - rewrite live_cons, merge_cons. destruct (skipped a) eqn:Hs.
    + rewrite (step_skipped c a Hs). apply IH.
    + destruct (IH (step c a)) as (I1 & I2 & I3 & I4). rewrite I1, I2, I3, I4.
      unfold step. rewrite Hs. simpl. rewrite orb_assoc. auto.
Qed.

(* membership of a rational in the interval of a variable *)
Definition inb (x : Qc) (v : var) : bool := eleb (vmin v) (Fin x) && eleb (Fin x) (vmax v).

Lemma in_signed_alias x a :
  eleb (smin a) (Fin x) && eleb (Fin x) (smax a) = inb (sgn (aneg a) x) (avar a).
Proof.
  unfold smin, smax, inb, sgn. destruct (aneg a).
  - rewrite <- (eopp_invol (Fin x)), !eleb_opp. apply andb_comm.
  - reflexivity.
Qed.

Lemma inb_step x c a :
  inb x (step c a) = inb x c && (skipped a || inb (sgn (aneg a) x) (avar a)).
Proof.
  unfold step. destruct (skipped a); [rewrite andb_true_r; reflexivity|].
  rewrite <- in_signed_alias. unfold inb, emax, emin. cbn [vmin vmax orb].
  rewrite (gmax_le eleb eleb_order), (gmin_le eleb eleb_order).
  destruct (eleb (vmin c) (Fin x)), (eleb (smin a) (Fin x)), (eleb (Fin x) (vmax c)); reflexivity.
Qed.

(* BOUNDS: the merged interval is exactly the intersection of the canonical's interval with
   every (non-skipped) alias' interval read through the alias' sign *)
Lemma bounds_intersection c als x :
  inb x (merge c als) = inb x c && forallb (fun a => inb (sgn (aneg a) x) (avar a)) (live als).
Proof.
  revert c. induction als as [|a als IH]; intros c; [symmetry; apply andb_true_r|].
  rewrite merge_cons, IH, inb_step, live_cons.
  destruct (skipped a); cbn [orb forallb]; [rewrite andb_true_r|rewrite andb_assoc]; reflexivity.
Qed.

Lemma fixed_any c als :
  vfixed (merge c als) = true <->
  vfixed c = true \/ exists a, In a als /\ skipped a = false /\ vfixed (avar a) = true.
Proof.
  destruct (merge_fields c als) as (_ & _ & _ & I4).
  rewrite I4, orb_true_iff, existsb_exists. split; (intros [H|H]; [left; exact H|right]).
  - destruct H as (a & Ha & Hf). apply filter_In in Ha as [Ha Hs]. apply negb_true_iff in Hs. eauto.
  - destruct H as (a & Ha & Hs & Hf). exists a. split; [|exact Hf].
    apply filter_In. split; [exact Ha|]. rewrite Hs. reflexivity.
Qed.

Lemma step_start c a :
  vstart (step c a) =
  match vstart c with
  | Some s => Some s
  | None => option_map (sgn (aneg a)) (if skipped a then None else vstart (avar a))
  end.
Proof. unfold step. destruct (skipped a); [destruct (vstart c)|]; reflexivity. Qed.

Lemma start_kept c als s : vstart c = Some s -> vstart (merge c als) = Some s.
Proof.
  revert c. induction als as [|a als IH]; intros c H; [exact H|].
  rewrite merge_cons. apply IH. rewrite step_start, H. reflexivity.
Qed.

(* no own start: the start is taken, sign-adjusted, from the first non-skipped alias (in
   iteration order) that has an explicit start; default if there is none *)
Lemma start_taken c als :
  vstart c = None ->
  (vstart (merge c als) = None /\
   forall a, In a als -> skipped a = false -> vstart (avar a) = None)
  \/
  (exists l1 a l2 s, als = l1 ++ a :: l2 /\ skipped a = false /\ vstart (avar a) = Some s /\
     (forall b, In b l1 -> skipped b = false -> vstart (avar b) = None) /\
     vstart (merge c als) = Some (sgn (aneg a) s)).
Proof.
  revert c. induction als as [|a als IH]; intros c H.
  - left. split; [exact H|]. intros a [].
  - rewrite merge_cons. pose proof (step_start c a) as E. rewrite H in E.
    destruct (if skipped a then None else vstart (avar a)) as [s|] eqn:O; cbn [option_map] in E.
    + destruct (skipped a) eqn:Hs; [discriminate O|].
      right. exists [], a, als, s. repeat split; auto.
      * intros b [].
      * apply start_kept, E.
    + assert (Na : skipped a = false -> vstart (avar a) = None)
        by (intros K; rewrite K in O; exact O).
      destruct (IH (step c a) E) as [[E' N]|(l1 & b & l2 & s & -> & Hb & Hbs & Hl1 & E')].
      * left. split; [exact E'|]. intros b [<-|Hb]; [exact Na|apply N, Hb].
      * right. exists (a :: l1), b, l2, s. repeat split; auto.
        intros b' [<-|Hb']; [exact Na|apply Hl1, Hb'].
Qed.

Lemma start_none c als :
  vstart (merge c als) = None <->
  vstart c = None /\ forall a, In a als -> skipped a = false -> vstart (avar a) = None.
Proof.
  destruct (vstart c) as [s|] eqn:Hc.
  - rewrite (start_kept c als s Hc). split; [discriminate|intros [K _]; discriminate K].
  - destruct (start_taken c als Hc) as [[E N]|(l1 & a & l2 & s & -> & Hs & Ha & _ & E)].
    + split; auto.
    + rewrite E. split; [discriminate|]. intros [_ N].
      rewrite (N a (in_elt a l1 l2) Hs) in Ha. discriminate Ha.
Qed.

(* ORDER INDEPENDENCE (the code iterates a Python set) *)
Lemma live_perm als als' : Permutation als als' -> Permutation (live als) (live als').
Proof.
  induction 1; rewrite ?live_cons.
  - constructor.
  - destruct (skipped x); [|constructor]; assumption.
  - destruct (skipped x), (skipped y); try apply Permutation_refl. apply perm_swap.
  - eapply Permutation_trans; eassumption.
Qed.

(* several passes: aliases handled in an earlier pass contribute nothing again *)
Lemma merge_all_skipped c als : forallb skipped als = true -> merge c als = c.
Proof.
  revert c. induction als as [|a als IH]; intros c H; [reflexivity|].
  simpl in H. apply andb_true_iff in H as [Ha H]. rewrite merge_cons, (step_skipped c a Ha). apply IH, H.
Qed.
