(* C02 — proofs over Model/C02_conc.v: the safety invariant for well-moded programs. *)
From Coq Require Import List Bool Arith Lia.
From PV Require Import Lib.Lock Model.C02_conc Proofs.C02_exec.
Import ListNotations.

Lemma length_upd_nth {A} n (x : A) l : length (upd_nth n x l) = length l.
Proof. revert n; induction l; intros [|n]; simpl; auto. Qed.

Lemma Forall_upd_nth {A} (P : A -> Prop) n x l : P x -> Forall P l -> Forall P (upd_nth n x l).
Proof.
  intros Hx H. revert n. induction H; intros [|n]; simpl; constructor; auto.
Qed.

Lemma nth_error_Forall {A} (P : A -> Prop) l n x : Forall P l -> nth_error l n = Some x -> P x.
Proof. intros H. revert n. induction H; intros [|n]; simpl; intros E; try discriminate; [inversion E; subst; auto|eauto]. Qed.

Lemma nth_upd_eq {A} (l : list A) n x : n < length l -> nth_error (upd_nth n x l) n = Some x.
Proof. revert n; induction l; intros [|n] H; cbn in *; try lia; auto. apply IHl; lia. Qed.
Lemma nth_upd_neq {A} (l : list A) n m x : n <> m -> nth_error (upd_nth n x l) m = nth_error l m.
Proof. revert n m; induction l; intros [|n] [|m] H; cbn; auto; try congruence. Qed.
Lemma nth_upd_inv {A} (l : list A) n m x y :
  nth_error (upd_nth n x l) m = Some y -> (m = n /\ y = x) \/ (m <> n /\ nth_error l m = Some y).
Proof.
  intros H. destruct (Nat.eq_dec n m) as [E|E].
  - subst m. destruct (Nat.lt_ge_cases n (length l)) as [L|L].
    + rewrite nth_upd_eq in H; auto. inversion H; auto.
    + assert (nth_error (upd_nth n x l) n = None) by (apply nth_error_None; rewrite length_upd_nth; auto).
      congruence.
  - rewrite nth_upd_neq in H; auto.
Qed.

Definition nonnone (x : option db) : Prop := x <> None.

Lemma content_some c g : g < length (c_store c) -> Forall nonnone (c_store c) -> exists d, content c g = Some d.
Proof.
  intros Hl Hf. unfold content. destruct (nth_error (c_store c) g) as [o|] eqn:E.
  - pose proof (nth_error_Forall _ _ _ _ Hf E) as Hn. destruct o; [eauto|congruence].
  - apply nth_error_None in E. lia.
Qed.

Lemma mode_eqb_eq a b : mode_eqb a b = true -> a = b.
Proof. destruct a, b; simpl; congruence. Qed.

Lemma ty_i_if c th el a :
  ty_i (IIf c th el) a =
  if is_cifail c then ty el a
  else match ty th a, ty el a with
       | Some x, Some y => if mode_eqb x y then Some x else None
       | _, _ => None
       end.
Proof. reflexivity. Qed.

Lemma ty_app l1 l2 a : ty (l1 ++ l2) a = match ty l1 a with Some a1 => ty l2 a1 | None => None end.
Proof.
  revert a. induction l1 as [|x l1 IH]; intros a; [reflexivity|].
  cbn [app ty]. destruct (ty_i x a); auto.
Qed.

Definition has_mode (t : thr) (a : mode) : Prop :=
  match a with
  | MClosed => t_conn t = None /\ t_intx t = false /\ t_lvl t = Unl
  | MN => t_conn t <> None /\ t_intx t = false /\ t_lvl t = Unl
  | MD0 => t_conn t <> None /\ t_intx t = true /\ t_lvl t = Unl
  | MD1 => t_conn t <> None /\ t_intx t = true /\ t_lvl t = Sh
  | MW => t_conn t <> None /\ t_intx t = true /\ geb (t_lvl t) Res = true
  end.

Lemma hm_eq t t' a : t_conn t' = t_conn t -> t_intx t' = t_intx t -> t_lvl t' = t_lvl t -> has_mode t a -> has_mode t' a.
Proof. intros A B C. destruct a; cbn; rewrite A, B, C; auto. Qed.

Definition live (len : nat) (t : thr) : Prop :=
  t_ifail t = false /\ (forall g, t_conn t = Some g -> g < len) /\
  exists a r, has_mode t a /\ ty (t_k t) a = Some r.

Definition tinv (len : nat) (t : thr) : Prop :=
  match t_st t with
  | Run => live len t
  | Fin => t_conn t = None
  | Err e => e = ESchema /\ t_conn t = None
  end.

Definition inv (c : cfg) : Prop :=
  Forall nonnone (c_store c) /\
  (exists g, c_path c = Some g /\ g < length (c_store c)) /\
  c_viol c = false /\
  Forall (tinv (length (c_store c))) (c_thrs c).

Lemma connected_live len ts j u g :
  Forall (tinv len) ts -> nth_error ts j = Some u -> t_conn u = Some g -> t_st u = Run /\ live len u.
Proof.
  intros F N C. pose proof (nth_error_Forall _ _ _ _ F N) as T. unfold tinv in T.
  destruct (t_st u); [auto|congruence|destruct T; congruence].
Qed.

Lemma advance_inv len k t a r :
  t_st t = Run -> t_ifail t = false -> (forall g, t_conn t = Some g -> g < len) ->
  has_mode t a -> ty k a = Some r -> tinv len (advance k t).
Proof.
  intros Hst Hif Hc Hm Hty. unfold advance.
  apply (advance_f_ind (fun k t => t_st t = Run /\ t_ifail t = false /\ (forall g, t_conn t = Some g -> g < len) /\
                                  exists a, has_mode t a /\ ty k a = Some r)); [..|eauto 6]; clear.
  - reflexivity.
  - intros k t (Hst & Hif & Hc & a & Hm & Hty). unfold tinv. cbn [set_k t_st]. rewrite Hst.
    split; [exact Hif|]. split; [exact Hc|]. exists a, r. split; [|exact Hty]. revert Hm. apply hm_eq; reflexivity.
  - intros r0 b k t (Hst & Hif & Hc & a & Hm & Hty). repeat split; auto. exists a. split; [|exact Hty].
    revert Hm. apply hm_eq; reflexivity.
  - intros c th el k t (Hst & Hif & Hc & a & Hm & Hty). repeat split; auto. exists a. split; [exact Hm|].
    cbn [ty] in Hty. rewrite ty_i_if in Hty. rewrite ty_app.
    destruct (is_cifail c) eqn:Ec.
    + destruct c; try discriminate Ec. cbn [cond_val]. rewrite Hif.
      destruct (ty el a); [exact Hty|discriminate].
    + destruct (ty th a) as [x|] eqn:E1; [|discriminate Hty].
      destruct (ty el a) as [y|] eqn:E2; [|discriminate Hty].
      destruct (mode_eqb x y) eqn:E3; [|discriminate Hty]. apply mode_eqb_eq in E3. subst y.
      destruct (cond_val t c); [rewrite E1|rewrite E2]; exact Hty.
Qed.

Lemma apply_wr_err x w d e : apply_wr x w d = inr e -> e = ESchema \/ (w = WInsert false).
Proof.
  destruct w as [[]|[]| | | | |rep]; cbn; intros H;
    repeat match type of H with context [if ?b then _ else _] => destruct b end;
    try discriminate; try (inversion H; auto).
Qed.

Lemma read_val_err x r d e : read_val x r d = inr e -> e = ESchema.
Proof. destruct r; cbn; intros H; try discriminate; destruct (is_good (d_models d)); try discriminate; inversion H; auto. Qed.

Lemma fails_schema c tid t s e a :
  fails c tid t s e -> has_mode t a -> check s a = true ->
  (forall g, t_conn t = Some g -> content c g <> None) -> e = ESchema.
Proof.
  intros F Hm Hck Hc. destruct F as [P|s U N|s g C D|s g op C O B|imm X|r dst g d e C V R|w g d e C V W|dst].
  - discriminate Hck.
  - assert (a = MClosed) by (destruct a; cbn in Hm; destruct Hm; congruence). subst a.
    destruct s; discriminate.
  - destruct (Hc g C D).
  - (* SQLITE_BUSY: a SHARED holder inside a transaction writes *)
    apply busy_only_on_upgrade in B. destruct B as (L & ix & ->).
    destruct s as [|h| |[]|rd dst|w| | |r b]; cbn in O; try discriminate; try (destruct (t_intx t); discriminate).
    destruct a; cbn in Hm, Hck; destruct Hm as (_ & _ & Z); rewrite L in Z; discriminate.
  - destruct a; cbn in Hm, Hck; destruct Hm as (_ & Y & _); congruence.
  - apply read_val_err in R. exact R.
  - apply apply_wr_err in W. destruct W as [W| ->]; [exact W|].
    cbn in Hck. rewrite !andb_false_r in Hck. discriminate.
  - cbn in Hck. rewrite andb_false_r in Hck. discriminate.
Qed.

Lemma block_mode t a oth op l :
  has_mode t a -> acquire (t_lvl t) oth op = Block l -> has_mode (with_lock t l (t_intx t) (t_view t)) a.
Proof.
  intros Hm B. destruct (acquire_block _ _ _ _ B) as [(_ & -> & _)|(_ & -> & M & _)].
  - revert Hm. apply hm_eq; reflexivity.
  - destruct a; cbn [has_mode] in Hm |- *; destruct Hm as (X & Y & Z); [rewrite Z in M; discriminate M..|auto].
Qed.

Lemma ran_mode c tid t s l x x' a :
  has_mode t a -> check s a = true -> ran_ok c tid t s l x x' -> has_mode (ran_thr c t s l x x') (trm s a).
Proof.
  intros Hm Hck (G & _).
  assert (Lv : forall op, lock_op t s = Some op -> l = level_after (t_lvl t) op).
  { intros op O. rewrite O in G. destruct G as (g & _ & G). apply acquire_grant in G. exact G. }
  destruct s as [|h| |imm|rd dst|w| | |r b]; cbn [lock_op] in G, Lv.
  (* integrity check, read, write: the level the lock table grants from each mode *)
  2, 5, 6: specialize (Lv _ eq_refl);
    destruct a; cbn in Hck; try discriminate; cbn [has_mode trm ran_thr t_conn t_intx t_lvl] in Hm |- *;
    destruct Hm as (X & Y & Z); rewrite Lv, Y; (split; [exact X|]);
    [rewrite Z; cbn; auto..|rewrite (level_after_writer _ _ Z) by discriminate; auto].
  - cbn. split; [discriminate|auto].
  - subst l. revert Hm. apply hm_eq; reflexivity.
  - assert (a = MN) by (destruct a; cbn in Hck; try discriminate; reflexivity). subst a.
    cbn [has_mode] in Hm. destruct Hm as (X & Y & Z). rewrite Y in G, Lv.
    destruct imm; [rewrite (Lv _ eq_refl)|subst l]; cbn; rewrite Z; auto.
  - (* commit: outside a transaction the level is Unl already *)
    assert (X : t_conn t <> None) by (destruct a; cbn in Hck, Hm; try discriminate; apply Hm).
    cbn. split; [exact X|]. split; [reflexivity|].
    destruct (t_intx t) eqn:Y; [exact (Lv _ eq_refl)|].
    destruct a; cbn [has_mode] in Hm; destruct Hm as (_ & Y' & Z); congruence.
  - cbn. auto.
  - subst l. revert Hm. apply hm_eq; reflexivity.
Qed.

Lemma store_after_ok c t s x' :
  c_path c <> None -> Forall nonnone (c_store c) ->
  length (store_after c t s x') = length (c_store c) /\ Forall nonnone (store_after c t s x').
Proof.
  intros Hp Hnn. unfold store_after.
  destruct s; [destruct (c_path c); [auto|contradiction]|..];
    (destruct (committed t _ x') as [y|]; [destruct (t_conn t) as [g|]|]; auto);
    (split; [apply length_upd_nth|apply Forall_upd_nth; [discriminate|exact Hnn]]).
Qed.

Lemma step_inv tid c :
  inv c ->
  inv (fst (step tid c)) /\ c_path (fst (step tid c)) = c_path c /\
  length (c_store (fst (step tid c))) = length (c_store c).
Proof.
  intros (Hnn & Hp & Hv & Hts).
  assert (Lv : forall t, nth_error (c_thrs c) tid = Some t -> t_st t = Run -> live (length (c_store c)) t).
  { intros t N R. pose proof (nth_error_Forall _ _ _ _ Hts N) as Ht. unfold tinv in Ht. rewrite R in Ht. exact Ht. }
  assert (Up : forall p sto vi tn o, p = c_path c -> length sto = length (c_store c) -> Forall nonnone sto ->
                 vi = c_viol c -> tinv (length (c_store c)) tn ->
                 let c' := fst (Cfg p sto (upd_nth tid tn (c_thrs c)) vi, o : obs) in
                 inv c' /\ c_path c' = c_path c /\ length (c_store c') = length (c_store c)).
  { intros p sto vi tn o -> L F -> T. cbn. split; [|auto]. unfold inv. cbn. rewrite L.
    repeat split; auto. apply Forall_upd_nth; auto. }
  assert (Hc : forall t, (forall g, t_conn t = Some g -> g < length (c_store c)) ->
                 forall g, t_conn t = Some g -> content c g <> None).
  { intros t Hcb g C. destruct (content_some c g (Hcb g C) Hnn) as (d & ->). discriminate. }
  assert (Hp' : c_path c <> None) by (destruct Hp as (g0 & -> & _); discriminate).
  destruct (step_stepped tid c)
    as [|t N R|t s k rr N R K [e o F _ _|g op l t' C O B ->|g _ C D|l x x' vi o r' O1 O2 V A ->]];
    cbn [r_thr r_path r_store r_viol r_out mk];
    [unfold inv; auto|destruct (Lv t N R) as (Hif & Hcb & a & r & Hm & Hty)..].
  - apply Up; auto. apply (advance_inv _ _ _ a r); auto.
  - rewrite K in Hty. cbn [ty ty_i] in Hty. destruct (check s a) eqn:Hck; [|discriminate].
    apply Up; auto. split; [|reflexivity]. exact (fails_schema c tid t s e a F Hm Hck (Hc t Hcb)).
  - apply Up; auto. unfold tinv. cbn [with_lock t_st]. rewrite R. split; [exact Hif|]. split; [exact Hcb|].
    exists a, r. split; [exact (block_mode t a _ op l Hm B)|exact Hty].
  - destruct (Hc t Hcb g C D).
  - rewrite K in Hty. cbn [ty ty_i] in Hty. destruct (check s a) eqn:Hck; [|discriminate].
    assert (Hs : s <> SRemove) by (intros ->; discriminate).
    destruct Hp as (g0 & Hp & Hg0). destruct (store_after_ok c t s x' Hp' Hnn) as (G2 & G3).
    apply Up; auto; [destruct s; cbn; unfold conn_gen; rewrite ?Hp; congruence|].
    apply (advance_inv _ _ _ (trm s a) r); auto; [|exact (ran_mode c tid t s l x x' a Hm Hck A)].
    (* the connection, if any, is the old one or the generation at the path *)
    intros g C. destruct s; cbn in C; try (apply Hcb; exact C); [|discriminate C].
    unfold conn_gen in C. rewrite Hp in C. congruence.
Qed.

Lemma run_inv sched c :
  inv c ->
  inv (fst (run sched c)) /\ c_path (fst (run sched c)) = c_path c /\
  length (c_store (fst (run sched c))) = length (c_store c).
Proof.
  intros H.
  apply (run_preserves (fun c' => inv c' /\ c_path c' = c_path c /\ length (c_store c') = length (c_store c)));
    [|auto].
  intros tid c1 (H1 & H2 & H3). destruct (step_inv tid c1 H1) as (G1 & G2 & G3). split; [exact G1|]. split; congruence.
Qed.

Lemma init_inv p d0 pars : side_ok p = true -> inv (init_cfg p (Some d0) pars).
Proof.
  intros Hs. unfold side_ok in Hs. destruct (ty p MClosed) as [r|] eqn:Ety; [|discriminate].
  unfold inv, init_cfg. cbn.
  split; [constructor; [unfold nonnone; congruence|constructor]|].
  split; [exists 0; split; [reflexivity|lia]|]. split; [reflexivity|].
  induction pars as [|par pars IH]; cbn; constructor; [|exact IH].
  unfold new_thr. apply (advance_inv _ _ _ MClosed r); cbn; auto.
  intros g E; discriminate.
Qed.

(* C02_safe_modes *)
Theorem safe p d0 pars sched :
  side_ok p = true ->
  let c := fst (run sched (init_cfg p (Some d0) pars)) in
  c_viol c = false /\ c_path c = Some 0 /\ length (c_store c) = 1 /\
  (forall t, In t (c_thrs c) -> forall e, t_st t = Err e -> e = ESchema).
Proof.
  intros Hs c. pose proof (run_inv sched _ (init_inv p d0 pars Hs)) as ((Hnn & Hp & Hv & Hts) & G2 & G3).
  fold c in Hnn, Hp, Hv, Hts, G2, G3.
  split; [exact Hv|]. split; [exact G2|]. split; [exact G3|].
  intros t Hin e He. rewrite Forall_forall in Hts. specialize (Hts t Hin). unfold tinv in Hts.
  rewrite He in Hts. exact (proj1 Hts).
Qed.

Lemma side_ok_head : side_ok prog_head = true.
Proof. vm_compute. reflexivity. Qed.
