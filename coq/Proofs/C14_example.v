(* C14 / C15 — non-vacuity: the hypotheses of the composed theorems instantiated on a concrete run *)
From Coq Require Import ZArith QArith Qcanon List Bool PArith Lia Permutation.
Import ListNotations.
From PV Require Import Model.C14_simplify Proofs.C14_simplify Proofs.C14_compose Proofs.C15_square.
Open Scope Qc_scope.

(* no value mentions a defined name: checked by evaluation on a concrete list *)
Lemma acyclic_flat (s : sub) :
  forallb (fun p => forallb (fun q => negb (occurs (fst q) (snd p))) s) s = true -> acyclic s.
Proof.
  intro H. exists (fun _ => 0%nat). intros x v y w H1 H2 H3. exfalso.
  rewrite forallb_forall in H. specialize (H _ H1). rewrite forallb_forall in H.
  specialize (H _ (lookup_In _ _ _ H2)). cbn [fst snd] in H. now rewrite H3 in H.
Qed.

Lemma loop_ok_noiter o m left : o_iter o = false -> run_ok (passes o) m -> forall fuel, loop_ok fuel o left m.
Proof.
  intros Hi Hr fuel. destruct fuel; simpl; auto. split; auto.
  destruct (failed (simplify_once o m)); auto. rewrite Hi. simpl. exact I.
Qed.
Lemma loop_ok15_noiter o m left : o_iter o = false -> run_ok (passes15 o) m -> forall fuel, loop_ok15 fuel o left m.
Proof.
  intros Hi Hr fuel. destruct fuel; simpl; auto. split; auto.
  destruct (failed (simplify_once o m)); auto. rewrite Hi. simpl. exact I.
Qed.

Example ex_run_ok : run_ok (passes o_ex) m_ex.
Proof.
  unfold passes, o_ex. cbn [run_ok o_rpe o_rce o_eca o_rpv o_rcv o_da elim_on o_elim o_allow_der].
  split; [intro; discriminate |]. split; [intro; discriminate |].
  split; [intros _ _; exact I |]. split; [intros _ _; exact I |].
  split.
  { intros _ _. split.
    - apply acyclic_flat. vm_compute. reflexivity.
    - vm_compute. reflexivity. }
  split.
  { intros _ _. unfold H_elim. cbn [o_elim]. split; [vm_compute; reflexivity |].
    apply acyclic_flat. vm_compute. reflexivity. }
  split; [| exact I].
  intros _ _. split.
  - intros r e d0 d1 n Hin Hd. vm_compute in Hin. destruct Hin as [<- | [<- | []]];
      vm_compute in Hd; inversion Hd; subst. simpl. apply Qc_add_0.
  - vm_compute. reflexivity.
Qed.

Example ex_run_ok15 : run_ok (passes15 o_ex) m_ex.
Proof.
  unfold passes15, o_ex. cbn [run_ok o_rpe o_rce o_eca o_rpv o_rcv o_da elim_on o_elim o_allow_der].
  split; [intro; discriminate |]. split; [intro; discriminate |].
  split; [intros _ _; exact I |]. split; [intros _ _; exact I |].
  split; [intros _ _; exact I |]. split; [intros _ _; vm_compute; reflexivity |].
  split; [| exact I].
  intros _ _. split; [| split].
  - match goal with |- relinv _ ?R => assert (E0 : R = []) by (vm_compute; reflexivity); rewrite E0 end.
    split; [constructor | split; [intros c [] | intros x []]].
  - intros e d0 d1 n Hin Hd. vm_compute in Hin. destruct Hin as [<- | [<- | []]];
      vm_compute in Hd; inversion Hd; subst. split; left; vm_compute; reflexivity.
  - vm_compute. reflexivity.
Qed.

Lemma ex_nodup : NoDup (algs m_ex).
Proof. repeat constructor; simpl; intuition discriminate. Qed.
Lemma ex_not_failed : failed (simplify o_ex m_ex) = false.
Proof. vm_compute. reflexivity. Qed.

Lemma ex_preserves r : sat2 r m_ex <-> sat2 r (simplify o_ex m_ex).
Proof.
  apply simplify_sound; [| exact ex_not_failed].
  apply loop_ok_noiter; [reflexivity | exact ex_run_ok].
Qed.
Lemma ex_square : sq m_ex (simplify o_ex m_ex).
Proof.
  apply simplify_square; [| exact ex_nodup | exact ex_not_failed].
  apply loop_ok15_noiter; [reflexivity | exact ex_run_ok15].
Qed.
