(* C02 — what one attempt of a statement (`attempt`) and one schedule entry (`stepped`) can do, said once:
   every outcome of `exec` / `step` has one of these forms.  The proofs of C02_conc.v, C02_live.v and
   C02_schema.v go by cases on `stepped`; none of them opens `exec` again. *)
From Coq Require Import List Bool Arith.
From PV Require Import Lib.Lock Model.C02_conc.
Import ListNotations.

Definition uses_conn (s : stmt) : bool :=
  match s with SIntegrity _ | SBegin _ | SRead _ _ | SWrite _ | SCommit => true | _ => false end.

Definition lock_op (t : thr) (s : stmt) : option lop :=
  match s with
  | SIntegrity _ | SRead _ _ => Some (LRead (t_intx t))
  | SWrite _ => Some (LWrite (t_intx t))
  | SBegin true => if t_intx t then None else Some LBeginImm
  | SCommit => if t_intx t then Some LCommit else None
  | _ => None
  end.

Definition vis (c : cfg) (g : nat) (t : thr) : option db :=
  match t_view t with Some d => Some d | None => content c g end.

Inductive fails (c : cfg) (tid : nat) (t : thr) : stmt -> err -> Prop :=
| F_nofile : c_path c = None -> fails c tid t SRemove ENoFile
| F_noconn s : uses_conn s = true -> t_conn t = None -> fails c tid t s ENoConn
| F_corrupt s g : t_conn t = Some g -> content c g = None -> fails c tid t s ECorrupt
| F_busy s g op : t_conn t = Some g -> lock_op t s = Some op ->
    acquire (t_lvl t) (others c tid g) op = Busy -> fails c tid t s EBusy
| F_nested imm : t_intx t = true -> fails c tid t (SBegin imm) ENested
| F_read r dst g d e : t_conn t = Some g -> vis c g t = Some d ->
    read_val (p_text (t_par t)) r d = inr e -> fails c tid t (SRead r dst) e
| F_write w g d e : t_conn t = Some g -> vis c g t = Some d ->
    apply_wr (t_par t) w d = inr e -> fails c tid t (SWrite w) e
| F_norow dst : fails c tid t (SRead RFetch dst) ENoRow.

Definition newregs (s : stmt) (regs : list (nat * bool)) (x : db) (par : params) : list (nat * bool) :=
  match s with
  | SSet r b => (r, b) :: regs
  | SRead rd dst =>
      match read_val (p_text par) rd x with
      | inl b => (match rd with RLookup => [(r_stale, row_stale (p_text par) x)] | _ => [] end) ++ (dst, b) :: regs
      | inr _ => regs
      end
  | _ => regs
  end.

Definition conn_gen (c : cfg) : nat := match c_path c with Some g => g | None => length (c_store c) end.

(* the call afterwards: l = the level granted, x = the content the statement saw, x' = the content a
   BEGIN IMMEDIATE or a write leaves it with *)
Definition ran_thr (c : cfg) (t : thr) (s : stmt) (l : lvl) (x x' : db) : thr :=
  Thr (tl (t_k t))
      (match s with SConnect => Some (conn_gen c) | SClose => None | _ => t_conn t end)
      (match s with SConnect | SClose => Unl | _ => l end)
      (match s with SConnect | SClose | SCommit => false | SBegin _ => true | _ => t_intx t end)
      (match s with
       | SConnect | SClose => None
       | SBegin true => Some x'
       | SWrite _ => if t_intx t then Some x' else None
       | SCommit => if t_intx t then None else t_view t
       | _ => t_view t
       end)
      (newregs s (t_regs t) x (t_par t)) (t_ifail t) (t_par t) (t_st t).

Definition committed (t : thr) (s : stmt) (x' : db) : option db :=
  match s with
  | SWrite _ => if t_intx t then None else Some x'
  | SCommit => if t_intx t then t_view t else None
  | _ => None
  end.

Definition path_after (c : cfg) (s : stmt) : option nat :=
  match s with SRemove => None | SConnect => Some (conn_gen c) | _ => c_path c end.

Definition store_after (c : cfg) (t : thr) (s : stmt) (x' : db) : list (option db) :=
  match s with
  | SConnect => match c_path c with Some _ => c_store c | None => c_store c ++ [Some empty_db] end
  | _ => match committed t s x', t_conn t with
         | Some y, Some g => upd_nth g (Some y) (c_store c)
         | _, _ => c_store c
         end
  end.

Definition ran_ok (c : cfg) (tid : nat) (t : thr) (s : stmt) (l : lvl) (x x' : db) : Prop :=
  match lock_op t s with
  | Some op => exists g, t_conn t = Some g /\ acquire (t_lvl t) (others c tid g) op = Grant l
  | None => l = t_lvl t
  end /\
  match s with
  | SBegin true => exists g, t_conn t = Some g /\ content c g = Some x'
  | SRead _ _ => x' = x /\ exists g, t_conn t = Some g /\ vis c g t = Some x
  | SWrite w => exists g, t_conn t = Some g /\ vis c g t = Some x /\ apply_wr (t_par t) w x = inl x'
  | _ => True
  end.

(* the integrity check raised on a garbage file and the handler caught it: only the flag is set *)
Definition caught (t : thr) : thr :=
  Thr (tl (t_k t)) (t_conn t) (t_lvl t) (t_intx t) (t_view t) (t_regs t) true (t_par t) (t_st t).

(* `adv`: what happens to the call after a statement that ran (nothing for `exec`, `advance` for `step`);
   where the statement neither reads nor writes, x and x' are not constrained *)
Inductive attempt (c : cfg) (tid : nat) (t : thr) (s : stmt) (adv : thr -> thr) : res -> Prop :=
| A_fail e o : fails c tid t s e -> o <> OBlocked -> o <> OIdle -> attempt c tid t s adv (mk (failed t e) c o)
| A_block g op l t' : t_conn t = Some g -> lock_op t s = Some op ->
    acquire (t_lvl t) (others c tid g) op = Block l -> t' = with_lock t l (t_intx t) (t_view t) ->
    attempt c tid t s adv (mk t' c OBlocked)
| A_caught g : s = SIntegrity true -> t_conn t = Some g -> content c g = None ->
    attempt c tid t s adv (mk (adv (caught t)) c OFail)
| A_done l x x' vi o r : o <> OBlocked -> o <> OIdle -> (s <> SRemove -> vi = c_viol c) ->
    ran_ok c tid t s l x x' ->
    r = Res_ (adv (ran_thr c t s l x x')) (path_after c s) (store_after c t s x') vi o ->
    attempt c tid t s adv r.

Lemma lock_frame c tid t s g op (body : lvl -> res) :
  t_conn t = Some g -> lock_op t s = Some op -> op <> LCommit ->
  (forall l, acquire (t_lvl t) (others c tid g) op = Grant l -> attempt c tid t s (fun u => u) (body l)) ->
  attempt c tid t s (fun u => u) (match acquire (t_lvl t) (others c tid g) op with
                     | Grant l => body l
                     | Block _ => mk t c OBlocked
                     | Busy => mk (failed t EBusy) c OBusy
                     end).
Proof.
  intros C O N H. destruct (acquire (t_lvl t) (others c tid g) op) as [l|l|] eqn:E.
  - exact (H l eq_refl).
  - destruct (acquire_block _ _ _ _ E) as [(_ & -> & _)|(X & _)]; [|contradiction].
    apply (A_block c tid t s _ g op (t_lvl t)); auto. destruct t; reflexivity.
  - apply A_fail; [exact (F_busy c tid t s g op C O E)|discriminate..].
Qed.

Local Ltac prj := cbn [t_conn t_lvl t_intx t_view t_k t_regs t_par t_st t_ifail lock_op].
(* statement s asks the lock table for op: what is left is the case where it is granted, at level l' *)
Local Ltac framed s g op :=
  match goal with |- attempt ?c ?tid ?T _ _ _ =>
    apply (lock_frame c tid T s g op); [reflexivity..|discriminate|intros l' E; prj]
  end.
(* a leaf of `exec` where the statement ran at level l, saw x and left x' *)
Local Ltac ran l x x' :=
  eapply (A_done _ _ _ _ _ l x x'); [..|reflexivity];
  [discriminate|discriminate|reflexivity|unfold ran_ok, vis; prj; eauto 8].

Lemma exec_attempt c tid t s : attempt c tid t s (fun u => u) (exec c tid t s).
Proof.
  destruct t as [k conn l ix v regs ifl par st].
  assert (NC : uses_conn s = true -> conn = None ->
                 attempt c tid (Thr k conn l ix v regs ifl par st) s (fun u => u)
                         (exec c tid (Thr k conn l ix v regs ifl par st) s)).
  { intros U ->. destruct s; try discriminate U; (apply A_fail; [apply F_noconn; reflexivity|discriminate..]). }
  destruct s as [|h| |imm|r dst|w| | |r b]; unfold exec; prj.
  - unfold mk. destruct (c_path c) as [g0|] eqn:Hp;
      (eapply (A_done _ _ _ _ _ l empty_db empty_db);
       [..|unfold ran_thr, path_after, store_after, conn_gen; rewrite Hp; reflexivity];
       [discriminate|discriminate|reflexivity|split; [reflexivity|exact I]]).
  - destruct conn as [g|]; [|exact (NC eq_refl eq_refl)].
    framed (SIntegrity h) g (LRead ix).
    destruct (content c g) as [d|] eqn:Hd; [ran l' d d|destruct h].
    + exact (A_caught c tid (Thr k (Some g) l ix v regs ifl par st) _ _ g eq_refl eq_refl Hd).
    + apply A_fail; [apply (F_corrupt _ _ _ _ g); auto|discriminate..].
  - destruct (c_path c) as [g0|] eqn:Hp; [|apply A_fail; [apply F_nofile; exact Hp|discriminate..]].
    eapply (A_done _ _ _ _ _ l empty_db empty_db); [..|reflexivity];
      [destruct (_ && _); discriminate..|intros X; contradiction|split; [reflexivity|exact I]].
  - destruct conn as [g|]; [|exact (NC eq_refl eq_refl)].
    destruct ix; [apply A_fail; [apply F_nested; reflexivity|discriminate..]|].
    destruct imm; [|ran l empty_db empty_db].
    framed (SBegin true) g LBeginImm.
    destruct (content c g) as [d|] eqn:Hd; [ran l' d d|].
    apply A_fail; [apply (F_corrupt _ _ _ _ g); auto|discriminate..].
  - destruct conn as [g|]; [|exact (NC eq_refl eq_refl)].
    framed (SRead r dst) g (LRead ix).
    destruct (match v with Some d => Some d | None => content c g end) as [d|] eqn:Hv;
      [|apply A_fail; [apply (F_corrupt _ _ _ _ g); [reflexivity|destruct v; [discriminate|exact Hv]]|discriminate..]].
    destruct (read_val (p_text par) r d) as [b|e] eqn:Hr;
      [|apply A_fail; [apply (F_read _ _ _ _ _ g d); auto|discriminate..]].
    assert (D : attempt c tid (Thr k (Some g) l ix v regs ifl par st) (SRead r dst) (fun u => u)
                  (mk (pop (Thr k (Some g) l' ix v (newregs (SRead r dst) regs d par) ifl par st)) c ODone))
      by (ran l' d d).
    cbn [newregs] in D. rewrite Hr in D.
    destruct r as [T|T| |]; try exact D. destruct b; [exact D|].
    apply A_fail; [apply F_norow|discriminate..].
  - destruct conn as [g|]; [|exact (NC eq_refl eq_refl)].
    framed (SWrite w) g (LWrite ix).
    destruct (match v with Some d => Some d | None => content c g end) as [d|] eqn:Hv;
      [|apply A_fail; [apply (F_corrupt _ _ _ _ g); [reflexivity|destruct v; [discriminate|exact Hv]]|discriminate..]].
    destruct (apply_wr par w d) as [d'|e] eqn:Hw;
      [|apply A_fail; [apply (F_write _ _ _ _ g d); auto|discriminate..]].
    destruct ix; ran l' d d'.
  - destruct conn as [g|]; [|exact (NC eq_refl eq_refl)].
    destruct ix; cbn [negb]; [|ran l empty_db empty_db].
    destruct (acquire l (others c tid g) LCommit) as [l'|l'|] eqn:E.
    + destruct v; ran l' empty_db empty_db.
    + eapply (A_block _ _ _ _ _ g); [reflexivity..|exact E|reflexivity].
    + apply A_fail; [eapply (F_busy _ _ _ _ g); [reflexivity..|exact E]|discriminate..].
  - ran l empty_db empty_db.
  - ran l empty_db empty_db.
Qed.

Lemma exec_blocked c tid t s :
  r_out (exec c tid t s) = OBlocked ->
  exists g op l, t_conn t = Some g /\ lock_op t s = Some op /\ acquire (t_lvl t) (others c tid g) op = Block l.
Proof.
  destruct (exec_attempt c tid t s) as [e o _ O _|g op l t' C O B _|g _ _ _|l x x' vi o r O _ _ _ ->];
    cbn [r_out mk]; intros H; [contradiction|exists g, op, l; auto|discriminate|contradiction].
Qed.

Lemma exec_not_idle c tid t s : r_out (exec c tid t s) <> OIdle.
Proof. destruct (exec_attempt c tid t s); subst; cbn [r_out mk]; auto; discriminate. Qed.

Lemma advance_f_ind (P : prog -> thr -> Prop) (Q : thr -> Prop) :
  (forall t, P [] t -> Q (set_st (set_k (closed t) []) Fin)) ->
  (forall k t, P k t -> Q (set_k t k)) ->
  (forall r b k t, P (IS (SSet r b) :: k) t -> P k (set_reg t r b)) ->
  (forall c th el k t, P (IIf c th el :: k) t -> P ((if cond_val t c then th else el) ++ k) t) ->
  forall n k t, P k t -> Q (advance_f n k t).
Proof.
  intros Hfin Hstop Hset Hif.
  induction n as [|n IH]; intros k t H; destruct k as [|[s|c th el] k']; cbn [advance_f]; auto; destruct s; auto.
Qed.

(* S_if only arises when `advance` ran out of fuel (C02_live.advance_nf) *)
Inductive stepped (tid : nat) (c : cfg) : cfg * obs -> Prop :=
| S_idle : stepped tid c (c, (tid, KNone, OIdle))
| S_if t : nth_error (c_thrs c) tid = Some t -> t_st t = Run ->
    stepped tid c (Cfg (c_path c) (c_store c) (upd_nth tid (advance (t_k t) t) (c_thrs c)) (c_viol c),
                   (tid, KNone, OIdle))
| S_at t s k r : nth_error (c_thrs c) tid = Some t -> t_st t = Run -> t_k t = IS s :: k ->
    attempt c tid t s (advance k) r ->
    stepped tid c (Cfg (r_path r) (r_store r) (upd_nth tid (r_thr r) (c_thrs c)) (r_viol r),
                   (tid, kind_of s, r_out r)).

Lemma step_stepped tid c : stepped tid c (step tid c).
Proof.
  unfold step. destruct (nth_error (c_thrs c) tid) as [t|] eqn:N; [|apply S_idle].
  destruct (t_st t) eqn:R; [|apply S_idle..].
  destruct (t_k t) as [|[s|cc th el] k] eqn:K; [apply S_idle| |rewrite <- K; apply (S_if tid c t N R)].
  destruct (exec_attempt c tid t s) as [e o F O1 O2|g op l t' C O B ->|g S C D|l x x' vi o r O1 O2 V A ->];
    cbn [r_thr r_path r_store r_viol r_out mk].
  - exact (S_at tid c t s k _ N R K (A_fail c tid t s _ e o F O1 O2)).
  - cbn [with_lock t_st]. rewrite R. exact (S_at tid c t s k _ N R K (A_block c tid t s _ g op l _ C O B eq_refl)).
  - cbn [caught t_st t_k]. rewrite R, K. exact (S_at tid c t s k _ N R K (A_caught c tid t s _ g S C D)).
  - cbn [ran_thr t_st t_k]. rewrite R, K. cbn [tl].
    replace (match o with OBlocked => ran_thr c t s l x x' | _ => advance k (ran_thr c t s l x x') end)
      with (advance k (ran_thr c t s l x x')) by (destruct o; try reflexivity; contradiction).
    exact (S_at tid c t s k _ N R K (A_done c tid t s _ l x x' vi o _ O1 O2 V A eq_refl)).
Qed.

Lemma run_preserves (P : cfg -> Prop) :
  (forall tid c, P c -> P (fst (step tid c))) -> forall sched c, P c -> P (fst (run sched c)).
Proof.
  intros H. induction sched as [|tid sched IH]; intros c Hc; [exact Hc|].
  cbn [run]. specialize (H tid c Hc). destruct (step tid c) as [c1 o]. specialize (IH c1 H).
  destruct (run sched c1). exact IH.
Qed.
