(* C14 / C15 — second layer: the value-into-value loop on acyclic definitions, the passes built on
   it, the alias relation and detect_aliases, and the composition over _simplify_once / simplify. *)
From Coq Require Import ZArith QArith Qcanon List Bool PArith Lia.
Import ListNotations.
From PV Require Import Model.C14_simplify Proofs.C14_simplify.
Open Scope Qc_scope.
Local Opaque SUBSTITUTE_LOOP_LIMIT.

Definition tri (rk : name -> nat) (s : sub) : Prop :=
  forall x v y w, In (x, v) s -> lookup y s = Some w -> occurs y v = true -> (rk y < rk x)%nat.
Definition acyclic (s : sub) : Prop := exists rk, tri rk s.

Definition sub_step (s : sub) : sub := map (fun p => (fst p, subst s (snd p))) s.

Lemma lookup_map_snd {B C} (f : B -> C) x (l : list (name * B)) :
  lookup x (map (fun p => (fst p, f (snd p))) l) = option_map f (lookup x l).
Proof.
  induction l as [| [y v] l IH]; simpl; try reflexivity.
  destruct (Pos.eqb x y); simpl; auto.
Qed.

Lemma tri_step rk s : tri rk s -> tri rk (sub_step s).
Proof.
  intros T x v' y w' Hin Hl Ho. unfold sub_step in *.
  apply in_map_iff in Hin. destruct Hin as [[x0 v] [E Hin]]. simpl in E. inversion E. subst x0 v'. clear E.
  rewrite lookup_map_snd in Hl. destruct (lookup y s) as [w |] eqn:Ly; simpl in Hl; try discriminate.
  apply subst_occ in Ho. destruct Ho as [[_ L] | [z [w0 [Hz [Lz Hy]]]]].
  - congruence.
  - assert (rk z < rk x)%nat by (eapply T; eauto).
    assert (rk y < rk z)%nat by (eapply T; eauto using lookup_In). lia.
Qed.

Lemma facts_sub_step r s : facts r s -> facts r (sub_step s).
Proof.
  intro F. unfold facts, sub_step. rewrite Forall_map. refine (Forall_impl _ _ F).
  intros [x v] H. cbn [fst snd] in *. now rewrite subst_under_facts.
Qed.

(* one step back: if r satisfies the substituted definitions it satisfies the definitions
   (by induction on a bound for the rank: the symbols a value refers to have been dealt with) *)
Lemma step_back r rk s : tri rk s -> facts r (sub_step s) -> facts r s.
Proof.
  intros T F.
  assert (K : forall k x v, In (x, v) s -> (rk x < k)%nat -> r x = eval r v).
  { induction k as [| k IH]; intros x v Hin Hk; [lia |].
    assert (Fx : r x = eval r (subst s v)).
    { apply (facts_In r (sub_step s)); [exact F |]. apply in_map_iff. exists (x, v). auto. }
    rewrite Fx, subst_sound. apply eval_ext_occ. intros y Hy. unfold upd.
    destruct (lookup y s) as [w |] eqn:L; try reflexivity.
    assert (rk y < rk x)%nat by (eapply T; eauto).
    symmetry. apply IH; [eapply lookup_In; eauto | lia]. }
  apply Forall_forall. intros [x v] Hin. exact (K _ x v Hin (Nat.lt_succ_diag_r _)).
Qed.

Lemma combine_map_r {A B C} (f : B -> C) (xs : list A) (vs : list B) :
  combine xs (map f vs) = map (fun p => (fst p, f (snd p))) (combine xs vs).
Proof.
  revert vs. induction xs as [| x xs IH]; intros [| v vs]; simpl; try reflexivity. now rewrite IH.
Qed.
Lemma combine_sub_step vars vals :
  combine vars (map (subst (combine vars vals)) vals) = sub_step (combine vars vals).
Proof. unfold sub_step. apply combine_map_r. Qed.

Lemma subst_fix_keeps (P : list expr -> Prop) vars :
  (forall vals, P vals -> P (map (subst (combine vars vals)) vals)) ->
  forall n vals, P vals -> P (fst (subst_fix n vars vals)).
Proof.
  intro Hs. induction n as [| n IH]; intros vals H; cbn [subst_fix]; [exact H |].
  destruct (list_eqb expr_eqb vals (map (subst (combine vars vals)) vals));
    [apply Hs, H | apply IH, Hs, H].
Qed.

(* what a pass substitutes for the definitions d it has collected *)
Definition resolved (d : sub) : sub :=
  combine (map fst d) (fst (subst_fix SUBSTITUTE_LOOP_LIMIT (map fst d) (map snd d))).

Lemma resolved_keeps (P : sub -> Prop) d : (forall s, P s -> P (sub_step s)) -> P d -> P (resolved d).
Proof.
  intros Hs H. apply (subst_fix_keeps (fun vals => P (combine (map fst d) vals))).
  - intros vals Hv. rewrite combine_sub_step. now apply Hs.
  - now rewrite combine_fst_snd.
Qed.

Lemma resolved_forward r d : facts r d -> facts r (resolved d).
Proof. exact (resolved_keeps (facts r) d (facts_sub_step r)). Qed.

(* backwards, whatever the loop's outcome: its rounds keep the definitions triangular, and each
   round can be undone *)
Lemma resolved_iff r d : acyclic d -> (facts r d <-> facts r (resolved d)).
Proof.
  intros [rk T]. split; [apply resolved_forward |].
  apply (resolved_keeps (fun s => tri rk s /\ (facts r s -> facts r d))); [| auto].
  intros s [Ts Bs]. split; [now apply tri_step | intro F; exact (Bs (step_back r rk _ Ts F))].
Qed.

Definition elim_defs (mt : list name) (m : model) : sub :=
  let '(_, defs, _, _) := elim_loop (states m) (algs m) (algs m) mt (eqs m) in defs.

Lemma pull_defs (K D I P G : Prop) : ((K /\ D) /\ I /\ P /\ G <-> (K /\ I /\ P /\ G) /\ D).
Proof. tauto. Qed.

(* the model is its definitions and a rest K; the pass keeps K and the resolved definitions *)
Lemma eliminate_vars_sat r mt m :
  failed (eliminate_vars mt m) = false ->
  exists K : Prop, (sat r m <-> K /\ facts r (elim_defs mt m)) /\
                   (sat r (eliminate_vars mt m) <-> K /\ facts r (resolved (elim_defs mt m))).
Proof.
  unfold elim_defs, eliminate_vars.
  destruct (elim_loop (states m) (algs m) (algs m) mt (eqs m)) as [[[al d] kept] u] eqn:E.
  destruct u; [cbn [orb failed set_failed]; congruence |]. cbn [orb].
  destruct (has_dup (map fst d)); [cbn [failed set_failed]; congruence |]. intros _.
  pose proof (elim_loop_sound r _ _ _ _ _ _ _ _ E) as L.
  exists (holds r kept /\ holds r (ieqs m) /\ (pfacts r (consts m) /\ pfacts r (params m))
          /\ facts r (ghost m)).
  split; [rewrite sat_iff, L; apply pull_defs |].
  destruct d as [| d0 d'].
  - assert (N : facts r (resolved [])) by constructor.
    rewrite sat_Model. symmetry. exact (and_holds_r _ _ N).
  - remember (d0 :: d') as d. unfold resolved.
    destruct (subst_fix SUBSTITUTE_LOOP_LIMIT (map fst d) (map snd d)) as [vals conv].
    rewrite sat_Model. cbn [fst].
    symmetry. eapply subst_pass; [intros _; reflexivity | reflexivity].
Qed.

Theorem eliminate_vars_forward r mt m :
  failed (eliminate_vars mt m) = false -> sat r m -> sat r (eliminate_vars mt m).
Proof.
  intros Hf'. destruct (eliminate_vars_sat r mt m Hf') as [K [A B]].
  pose proof (resolved_forward r (elim_defs mt m)) as F. clear - A B F. tauto.
Qed.

Theorem sound_eliminate_vars r mt m :
  acyclic (elim_defs mt m) -> failed (eliminate_vars mt m) = false ->
  (sat r m <-> sat r (eliminate_vars mt m)).
Proof.
  intros Hac Hf'. destruct (eliminate_vars_sat r mt m Hf') as [K [A B]].
  rewrite A, B, (resolved_iff r _ Hac). reflexivity.
Qed.

Definition expr_defs (on_params : bool) (m : model) : sub :=
  snd (split_simple (if on_params then params m else consts m)).

Theorem sound_replace_exprs b r m :
  acyclic (expr_defs b m) -> (sat r m <-> sat r (replace_exprs b m)).
Proof.
  unfold expr_defs, replace_exprs. intro Hac.
  pose proof (parts_facts r _ _ _ (split_simple_parts (if b then params m else consts m))) as SP.
  destruct (split_simple (if b then params m else consts m)) as [simple d]. cbn [fst snd] in SP, Hac.
  pose proof (resolved_iff r d Hac) as RI.
  rewrite (sat_iff r m). destruct d as [| d0 d'].
  - assert (N : facts r []) by constructor.
    destruct b; rewrite sat_Model;
      [apply (iff_trans (sat_split_r _ _ _ _ _ _ _ SP)) | apply (iff_trans (sat_split_l _ _ _ _ _ _ _ SP))];
      exact (and_holds_r _ _ N).
  - remember (d0 :: d') as d. unfold resolved in RI.
    destruct (subst_fix SUBSTITUTE_LOOP_LIMIT (map fst d) (map snd d)) as [vals conv].
    cbn [fst] in RI. rewrite sat_Model.
    eapply subst_pass; [intro F; now rewrite !pfacts_subst by exact F | rewrite <- RI].
    destruct b; [exact (sat_split_r _ _ _ _ _ _ _ SP) | exact (sat_split_l _ _ _ _ _ _ _ SP)].
Qed.

Definition rel_sat (r : env) (R : list acls) : Prop :=
  forall c ms a n, In (c, ms) R -> In (a, n) ms -> r a = sgnq n (r c).

Lemma sgnq_sgnq n m q : sgnq n (sgnq m q) = sgnq (xorb n m) q.
Proof. destruct n, m; simpl; ring. Qed.
Lemma sgnq_swap n a b : a = sgnq n b <-> b = sgnq n a.
Proof. split; intros ->; rewrite sgnq_sgnq; destruct n; reflexivity. Qed.

Lemma canon_sound r R x : rel_sat r R -> r x = sgnq (snd (canon R x)) (r (fst (canon R x))).
Proof.
  induction R as [| [c ms] R IH]; simpl; intro S; try reflexivity.
  destruct (Pos.eqb c x) eqn:E.
  - apply Pos.eqb_eq in E. subst. reflexivity.
  - destruct (lookup x ms) as [n |] eqn:L.
    + simpl. apply lookup_In in L. eapply S; [left; reflexivity | exact L].
    + apply IH. intros c' ms' a n H1 H2. eapply S; [right; exact H1 | exact H2].
Qed.

Lemma rel_sat_app r R1 R2 : rel_sat r (R1 ++ R2) <-> rel_sat r R1 /\ rel_sat r R2.
Proof.
  unfold rel_sat. split.
  - intro S. split; intros c ms a n H; apply S, in_or_app; auto.
  - intros [S1 S2] c ms a n [H | H]%in_app_or; eauto.
Qed.

Lemma rel_sat_class r c R :
  rel_sat r R <-> rel_sat r (arel_remove c R)
                  /\ (forall a n, In (a, n) (members_of c R) -> r a = sgnq n (r c)).
Proof.
  unfold rel_sat, arel_remove, members_of. split.
  - intro S. split.
    + intros c' ms a n [H _]%filter_In. now apply S.
    + intros a n [[c' ms] [[H E]%filter_In Ha]]%in_flat_map. cbn [fst snd] in E, Ha.
      apply Pos.eqb_eq in E. subst c'. exact (S _ _ _ _ H Ha).
  - intros [S1 S2] c' ms a n H Ha. destruct (Pos.eqb c' c) eqn:E.
    + apply Pos.eqb_eq in E. subst c'. apply S2, in_flat_map. exists (c, ms).
      split; [apply filter_In; split; [exact H | apply Pos.eqb_refl] | exact Ha].
    + apply (S1 c' ms); [apply filter_In; split; [exact H | cbn [fst]; now rewrite E] | exact Ha].
Qed.

Lemma arel_add_sound r R a b nb R' : arel_add R a b nb = Some R' ->
  (rel_sat r R' <-> rel_sat r R /\ r a = sgnq nb (r b)).
Proof.
  unfold arel_add.
  pose proof (canon_sound r R a) as Ca. pose proof (canon_sound r R b) as Cb.
  destruct (canon R a) as [ca na]. destruct (canon R b) as [cb nb0]. cbn [fst snd] in Ca, Cb.
  destruct (Pos.eqb ca cb) eqn:E.
  - apply Pos.eqb_eq in E. subst cb.
    destruct (Bool.eqb na (xorb nb nb0)) eqn:B; try discriminate.
    intros [= <-]. apply eqb_prop in B. subst na.
    split; [| tauto]. intro S. split; auto.
    rewrite (Ca S), (Cb S), sgnq_sgnq. destruct nb, nb0; reflexivity.
  - intros [= <-]. set (flip := xorb na (xorb nb nb0)).
    (* the class of cb moves under ca with the sign `flip`; given the old relation, the new
       equation says exactly cb = flip * ca *)
    assert (Hcb : rel_sat r R -> (r cb = sgnq flip (r ca) <-> r a = sgnq nb (r b))).
    { intro S. rewrite (Ca S), (Cb S), sgnq_sgnq, (sgnq_swap (xorb nb nb0)), sgnq_sgnq.
      unfold flip. now rewrite xorb_comm. }
    rewrite rel_sat_app, (rel_sat_class r cb R).
    assert (M : rel_sat r [(ca, (cb, flip) :: map (fun '(v, n) => (v, xorb n flip)) (members_of cb R))]
                <-> r cb = sgnq flip (r ca)
                    /\ (r cb = sgnq flip (r ca) ->
                        forall v n, In (v, n) (members_of cb R) -> r v = sgnq n (r cb))).
    { split.
      - intro S. assert (K : r cb = sgnq flip (r ca)) by (eapply S; [left; reflexivity | now left]).
        split; [exact K |]. intros _ v n Hv. rewrite K, sgnq_sgnq.
        eapply S; [left; reflexivity |]. right. apply in_map_iff. now exists (v, n).
      - intros [K C]. unfold rel_sat. intros c ms v n [[= <- <-] | []] [[= <- <-] | Hv]; [exact K |].
        apply in_map_iff in Hv as [[v0 n0] [[= <- <-] Hv]].
        rewrite (C K _ _ Hv), K, sgnq_sgnq. reflexivity. }
    rewrite M. rewrite (rel_sat_class r cb R) in Hcb. clear - Hcb. tauto.
Qed.

(* _make_alias, whichever of the two it makes the alias, adds d0 = [-]d1 *)
Lemma make_alias_sound r ad al dl dne R d0 d1 neg R' :
  make_alias ad al dl dne R d0 d1 neg = Some R' ->
  (rel_sat r R' <-> rel_sat r R /\ r d0 = sgnq neg (r d1)).
Proof.
  unfold make_alias.
  destruct (mem d0 al); [| destruct (mem d1 al); [| discriminate]];
    repeat match goal with
           | |- context [if ?c then _ else _] => destruct c
           end; try discriminate; intro H; rewrite (arel_add_sound r _ _ _ _ _ H);
    try reflexivity; now rewrite (sgnq_swap neg (r d1)).
Qed.

(* one round of a loop over the equations that threads a state (what R says of it): the equation
   is kept, or it is dropped and what it says (X) goes into the state *)
Lemma loop_keep r e es kept (R D : Prop) :
  (holds r es /\ R <-> holds r kept /\ D) -> (holds r (e :: es) /\ R <-> holds r (e :: kept) /\ D).
Proof. rewrite !holds_cons. tauto. Qed.
Lemma loop_drop r e es kept (X R R' D : Prop) :
  (eval r e = 0 <-> X) -> (R' <-> R /\ X) -> (holds r es /\ R' <-> holds r kept /\ D) ->
  (holds r (e :: es) /\ R <-> holds r kept /\ D).
Proof. rewrite holds_cons. tauto. Qed.

(* the propositional steps of the loop with states, on variables: N is `facts r []` *)
Lemma drop_def (A B D N : Prop) : N -> (A /\ B /\ D /\ N <-> (A /\ B) /\ D).
Proof. tauto. Qed.
Lemma drop_def_der (A B C D N : Prop) : N -> (A /\ B /\ C /\ D /\ N <-> ((C /\ A) /\ B) /\ D).
Proof. tauto. Qed.
Lemma eqs_for_defs (E K I P G DD D N : Prop) :
  N -> (E /\ DD /\ N <-> K /\ D) -> ((E /\ I /\ P /\ G) /\ DD <-> (K /\ I /\ P /\ G) /\ D).
Proof.
  intros n [H1 H2]. split.
  - intros ((e & i & p & g) & dd). destruct H1 as [k d]; [auto |]. repeat split; assumption.
  - intros ((k & i & p & g) & d). destruct H2 as (e & dd & _); [auto |]. repeat split; assumption.
Qed.

Lemma eqs_for_rel (E K I P G S S' : Prop) :
  (E /\ S <-> K /\ S') -> ((E /\ I /\ P /\ G) /\ S <-> (K /\ I /\ P /\ G) /\ S').
Proof.
  intros [H1 H2]. split.
  - intros ((e & i & p & g) & s). destruct H1 as [k s']; [auto |]. repeat split; assumption.
  - intros ((k & i & p & g) & s'). destruct H2 as [e s]; [auto |]. repeat split; assumption.
Qed.

Definition shapes_ok (r : env) (pc : list name) (es : list expr) : Prop :=
  forall e d0 d1 n, In e es -> detect_alias pc e = Some (d0, d1, n) ->
                    (eval r e = 0 <-> r d0 = sgnq n (r d1)).

Lemma da_loop_sound r ad al dl dne pc : forall es R R' kept,
  shapes_ok r pc es ->
  da_loop ad al dl dne pc R es = (R', kept) ->
  (holds r es /\ rel_sat r R <-> holds r kept /\ rel_sat r R').
Proof.
  induction es as [| e es IH]; intros R R' kept Hsh; cbn [da_loop].
  - intros [= <- <-]. tauto.
  - assert (Hsh' : shapes_ok r pc es).
    { intros e' d0 d1 n Hin. apply Hsh. now right. }
    destruct (detect_alias pc e) as [[[d0 d1] neg] |] eqn:D.
    + destruct (make_alias ad al dl dne R d0 d1 neg) as [R1 |] eqn:M.
      * intro H. exact (loop_drop r e es _ _ _ _ _ (Hsh e d0 d1 neg (or_introl eq_refl) D)
                                   (make_alias_sound r _ _ _ _ _ _ _ _ _ M) (IH _ _ _ Hsh' H)).
      * destruct (da_loop ad al dl dne pc R es) as [R2 k2] eqn:E. intros [= <- <-].
        apply loop_keep, (IH _ _ _ Hsh' E).
    + destruct (da_loop ad al dl dne pc R es) as [R2 k2] eqn:E. intros [= <- <-].
      apply loop_keep, (IH _ _ _ Hsh' E).
Qed.

Definition sat2 (r : env) (m : model) : Prop := sat r m /\ rel_sat r (arel m).

Lemma alias_subst_facts r R (f : acls -> list (name * bool)) :
  (forall cl x, In x (f cl) -> In x (snd cl)) -> rel_sat r R ->
  facts r (flat_map (fun cl => map (fun '(a, n) => (a, sgn n (Sym (fst cl)))) (f cl)) R).
Proof.
  intros Hf S. unfold facts. apply Forall_forall. intros [x e] Hin.
  apply in_flat_map in Hin. destruct Hin as [[c ms] [Hc Hin]].
  apply in_map_iff in Hin. destruct Hin as [[a n] [E Hin]]. inversion E. subst x e. clear E.
  simpl. rewrite eval_sgn. simpl. eapply S; [exact Hc | apply (Hf (c, ms)); exact Hin].
Qed.

Lemma filter_len {A} (f : A -> bool) l : (length (filter f l) <= length l)%nat.
Proof. induction l as [| a l IH]; simpl; [lia | destruct (f a); simpl; lia]. Qed.
Lemma filter_same_fst {B} (f : name * B -> bool) l :
  map fst (filter f l) = map fst l -> filter f l = l.
Proof.
  induction l as [| a l IH]; simpl; auto. destruct (f a) eqn:E; simpl; intro H.
  - inversion H. f_equal. auto.
  - exfalso. pose proof (filter_len f l) as L. apply (f_equal (@length _)) in H.
    simpl in H. rewrite !map_length in H. lia.
Qed.

Theorem sound_detect_aliases r ad m :
  shapes_ok r (map fst (params m) ++ map fst (consts m)) (eqs m) ->
  failed (detect_aliases ad m) = false ->
  map fst (params (detect_aliases ad m)) = map fst (params m) ->
  (sat2 r m <-> sat2 r (detect_aliases ad m)).
Proof.
  unfold detect_aliases. intro Hsh.
  destruct (da_loop _ _ _ _ _ _ _) as [R kept] eqn:E.
  pose proof (da_loop_sound r _ _ _ _ _ _ _ _ _ Hsh E) as L.
  match goal with |- context [if ?c then _ else _] => destruct c end.
  { cbn [failed set_failed]. congruence. }
  intros _ Hp. apply filter_same_fst in Hp. rewrite Hp.
  match goal with |- context [map (subst ?s0) kept] => set (s := s0) end.
  assert (Fs : rel_sat r R -> facts r s).
  { intro S. unfold s. apply alias_subst_facts; auto.
    intros cl x Hx. apply filter_In in Hx. tauto. }
  unfold sat2. rewrite (sat_iff r m), sat_Model. cbn [arel].
  transitivity ((holds r kept /\ holds r (ieqs m) /\ (pfacts r (consts m) /\ pfacts r (params m))
                 /\ facts r (ghost m)) /\ rel_sat r R); [exact (eqs_for_rel _ _ _ _ _ _ _ L) |].
  apply iff_under_r. intro S. rewrite !(holds_subst r s _ (Fs S)). reflexivity.
Qed.

Definition const_defs (m : model) : sub :=
  flat_map (fun '(x, v) => match v with Some e => [(x, e)] | None => [] end) (consts m).
(* no alias entry has a constant as canonical variable (always true in the first pass of simplify;
   otherwise the entry is removed and its facts move to the ghost list — not covered here) *)
Definition no_const_canonical (m : model) : Prop :=
  forallb (fun cl => negb (mem (fst cl) (map fst (consts m)))) (arel m) = true.

Lemma resolve_defs_iff r d : acyclic d -> (facts r d <-> facts r (fst (resolve_defs d))).
Proof.
  intro Hac. unfold resolve_defs. destruct (existsb _ d); [| cbn [fst]; tauto].
  pose proof (resolved_iff r d Hac) as RI. unfold resolved in RI.
  destruct (subst_fix SUBSTITUTE_LOOP_LIMIT (map fst d) (map snd d)) as [vals conv]. exact RI.
Qed.

Lemma filter_none {A} (f : A -> bool) l : forallb (fun x => negb (f x)) l = true -> filter f l = [].
Proof.
  induction l as [| a l IH]; simpl; auto. intro H. apply andb_true_iff in H. destruct H as [H1 H2].
  apply negb_true_iff in H1. rewrite H1. auto.
Qed.

Theorem sound_replace_const_values r m :
  acyclic (const_defs m) -> no_const_canonical m -> failed (replace_const_values m) = false ->
  (sat2 r m <-> sat2 r (replace_const_values m)).
Proof.
  unfold replace_const_values, no_const_canonical. intros Hac Hnc.
  fold (const_defs m).
  pose proof (resolve_defs_iff r (const_defs m) Hac) as RI.
  destruct (resolve_defs (const_defs m)) as [s conv]. cbn [fst] in RI.
  destruct (existsb (fun '(_, v) => match v with None => true | _ => false end) (consts m)) eqn:Ex.
  { cbn [failed set_failed]. congruence. }
  pose proof (parts_facts r _ _ _ (consts_parts (consts m) Ex)) as CF. fold (const_defs m) in CF.
  intros _. rewrite (filter_all _ _ Hnc), (filter_none _ _ Hnc). cbn [flat_map]. rewrite app_nil_r.
  unfold sat2. rewrite (sat_iff r m), sat_Model. cbn [arel].
  apply and_iff_compat_r.
  eapply subst_pass; [intro F; now rewrite pfacts_subst by exact F | rewrite <- RI].
  assert (N : pfacts r []) by constructor. clear - CF N. tauto.
Qed.

Definition pass : Type := (bool * (model -> model) * (model -> Prop))%type.
Fixpoint run (ps : list pass) (m : model) : model :=
  match ps with [] => m | (b, f, _) :: ps' => run ps' (step b f m) end.
(* the carve-out hypotheses, each stated on the model that reaches its pass *)
Fixpoint run_ok (ps : list pass) (m : model) : Prop :=
  match ps with
  | [] => True
  | (b, f, H) :: ps' => (b = true -> failed m = false -> H m) /\ run_ok ps' (step b f m)
  end.

Lemma run_failed ps : forall m, failed m = true -> failed (run ps m) = true.
Proof.
  induction ps as [| [[b f] H] ps IH]; simpl; auto.
  intros m Hf. unfold step. rewrite Hf, andb_false_r. auto.
Qed.

Definition pass_keeps (I : model -> Prop) (p : pass) : Prop :=
  let '(_, f, H) := p in
  forall m, H m -> I m -> failed m = false -> failed (f m) = false -> I (f m).

Lemma run_keeps (I : model -> Prop) ps : Forall (pass_keeps I) ps ->
  forall m, run_ok ps m -> I m -> failed (run ps m) = false -> I (run ps m).
Proof.
  induction 1 as [| [[b f] H] ps Hp Hps IH]; simpl; intros m Hok Hm Hf; [exact Hm |].
  destruct Hok as [H1 H2]. apply IH; [exact H2 | | exact Hf].
  assert (Hf1 : failed (step b f m) = false).
  { destruct (failed (step b f m)) eqn:E; auto. rewrite (run_failed ps _ E) in Hf. discriminate. }
  unfold step in *. destruct b; simpl in *; [| exact Hm].
  destruct (failed m) eqn:Fm; simpl in *; [exact Hm |]. apply (Hp m); auto.
Qed.

Definition elim_on (o : options) : bool := match o_elim o with Some _ => true | None => false end.
Definition elim_f (o : options) (m : model) : model :=
  match o_elim o with
  | Some ns => if o_expand_mx o
               then (if no_elim_state ns m then eliminate_vars ns m
                     else eliminate_vars2 (o_dermap o) ns m)
               else set_failed m
  | None => m
  end.
(* no eliminable differentiated state (the get_derivative path is in the executable model and in the
   correspondence, its solution theorem is C14_pass_eliminable_states_partial) *)
Definition H_elim (o : options) (m : model) : Prop :=
  match o_elim o with
  | Some ns => no_elim_state ns m = true /\ acyclic (elim_defs ns m)
  | None => True
  end.
Definition H_rcv (m : model) : Prop := acyclic (const_defs m) /\ no_const_canonical m.
Definition H_da (o : options) (m : model) : Prop :=
  (forall r, shapes_ok r (map fst (params m) ++ map fst (consts m)) (eqs m)) /\
  map fst (params (detect_aliases (o_allow_der o) m)) = map fst (params m).

(* THE MODELLED OPTION SET, in the order of _simplify_once (model.py:474-1278) *)
Definition passes (o : options) : list pass :=
  [ (o_rpe o, replace_exprs true, fun m => acyclic (expr_defs true m));   (* replace_parameter_expressions *)
    (o_rce o, replace_exprs false, fun m => acyclic (expr_defs false m)); (* replace_constant_expressions *)
    (o_eca o, elim_const_assignments, fun _ => True);                     (* eliminate_constant_assignments *)
    (o_rpv o, replace_param_values, fun _ => True);                       (* replace_parameter_values *)
    (o_rcv o, replace_const_values, H_rcv);                               (* replace_constant_values *)
    (elim_on o, elim_f o, H_elim o);            (* eliminable_variable_expression (+ expand_mx) *)
    (o_da o, detect_aliases (o_allow_der o), H_da o) ].  (* detect_aliases (+ allow_derivative_aliases) *)

Lemma simplify_once_run o m : simplify_once o m = run (passes o) m.
Proof.
  unfold simplify_once, passes, run, elim_on, elim_f.
  destruct (o_elim o); reflexivity.
Qed.

Lemma sat2_same_arel r m m' : arel m' = arel m -> (sat r m <-> sat r m') -> (sat2 r m <-> sat2 r m').
Proof. unfold sat2. intros -> H. tauto. Qed.

Lemma arel_replace_exprs b m : arel (replace_exprs b m) = arel m.
Proof.
  unfold replace_exprs. destruct (split_simple _) as [simple defs].
  destruct defs; [destruct b; reflexivity |].
  destruct (subst_fix _ _ _). reflexivity.
Qed.
Lemma arel_eca m : arel (elim_const_assignments m) = arel m.
Proof. unfold elim_const_assignments. destruct (eca_loop _ _) as [[? ?] ?]. reflexivity. Qed.
Lemma arel_rpv m : arel (replace_param_values m) = arel m.
Proof. unfold replace_param_values. destruct (split_valued _). reflexivity. Qed.
Lemma arel_elim mt m : arel (eliminate_vars mt m) = arel m.
Proof.
  unfold eliminate_vars. destruct (elim_loop _ _ _ _ _) as [[[? defs] ?] u].
  destruct (u || has_dup (map fst defs)); [reflexivity |].
  destruct defs; [reflexivity |]. destruct (subst_fix _ _ _). reflexivity.
Qed.

Lemma sat2_keeps r m0 b f (H : model -> Prop) :
  (forall m, H m -> failed m = false -> failed (f m) = false -> (sat2 r m <-> sat2 r (f m))) ->
  pass_keeps (fun m => sat2 r m0 <-> sat2 r m) (b, f, H).
Proof. intros Hp m Hm I Hf Hf'. rewrite I. now apply Hp. Qed.

Lemma passes_keep r m0 o : Forall (pass_keeps (fun m => sat2 r m0 <-> sat2 r m)) (passes o).
Proof.
  unfold passes. repeat (apply Forall_cons; [apply sat2_keeps |]); [| | | | | | | apply Forall_nil].
  - intros m H _ _. apply sat2_same_arel; [apply arel_replace_exprs | now apply sound_replace_exprs].
  - intros m H _ _. apply sat2_same_arel; [apply arel_replace_exprs | now apply sound_replace_exprs].
  - intros m _ _ _. apply sat2_same_arel; [apply arel_eca | apply sound_elim_const_assignments].
  - intros m _ _ _. apply sat2_same_arel; [apply arel_rpv | apply sound_replace_param_values].
  - intros m [H1 H2] _ Hf. now apply sound_replace_const_values.
  - intros m H Hf Hf'. unfold elim_f, H_elim in *. destruct (o_elim o) as [ns |]; [| tauto].
    destruct H as [Hn H]. rewrite Hn in *.
    destruct (o_expand_mx o); [| simpl in Hf'; discriminate].
    apply sat2_same_arel; [apply arel_elim | now apply sound_eliminate_vars].
  - intros m [H1 H2] _ Hf. apply sound_detect_aliases; auto.
Qed.

Theorem simplify_once_sound r o m :
  run_ok (passes o) m -> failed (simplify_once o m) = false ->
  (sat2 r m <-> sat2 r (simplify_once o m)).
Proof.
  rewrite simplify_once_run. intros Hok Hf.
  now apply (run_keeps _ _ (passes_keep r m o) m Hok).
Qed.

Fixpoint loop_ok (fuel : nat) (o : options) (left : nat) (m : model) : Prop :=
  match fuel with
  | O => True
  | S f =>
      run_ok (passes o) m /\
      let m' := simplify_once o m in
      if failed m' then True
      else if o_iter o && negb (Nat.eqb left (length (algs m')))
           then loop_ok f o (length (algs m')) m' else True
  end.

Theorem simplify_loop_sound r o : forall fuel left m,
  loop_ok fuel o left m -> failed (simplify_loop fuel o left m) = false ->
  (sat2 r m <-> sat2 r (simplify_loop fuel o left m)).
Proof.
  induction fuel as [| f IH]; simpl; intros left m Hok Hf; [tauto |].
  destruct Hok as [H1 H2].
  destruct (failed (simplify_once o m)) eqn:Fm; [congruence |].
  destruct (o_iter o && negb (Nat.eqb left (length (algs (simplify_once o m))))).
  - rewrite <- (IH _ _ H2 Hf). now apply simplify_once_sound.
  - now apply simplify_once_sound.
Qed.

Theorem simplify_sound r o m :
  loop_ok SIMPLIFICATION_LOOP_LIMIT o 0%nat m -> failed (simplify o m) = false ->
  (sat2 r m <-> sat2 r (simplify o m)).
Proof. apply simplify_loop_sound. Qed.

Lemma extract2_bin sts all0 al mt o d0 d1 : o <> Mul ->
  extract2 sts all0 al mt (Bin o d0 d1) = choose mt al sts o d0 d1 E2Alg E2State E2None.
Proof. destruct o; [reflexivity | reflexivity | contradiction]. Qed.

Lemma extract2_solved sts all0 al mt e x v :
  extract2 sts all0 al mt e = E2Alg x v \/ extract2 sts all0 al mt e = E2State x v -> solved x e v.
Proof.
  destruct e as [y | q | o a | o d0 d1]; try (intros [H | H]; discriminate); intro H.
  - cbn [extract2] in H. destruct (mem y all0 && mem y mt); [| destruct H; discriminate].
    destruct (mem y sts), H as [H | H]; try discriminate; injection H as <- <-; constructor.
  - assert (Ho : o <> Mul) by (intros ->; destruct H; discriminate).
    rewrite extract2_bin in H by exact Ho. revert H.
    apply choose_cases; [exact Ho | | | intros [H | H]; discriminate];
      intros x' v' S _ [H | H]; try discriminate; now injection H as <- <-.
Qed.

Local Opaque GD_FUEL promote dexpr.
(* the loop with states: the consumed equations TOGETHER WITH the derivative definitions
   der(x) = d/dt(value) (which get_derivative adds: they are not consequences of the pointwise
   equations) are equivalent to the kept equations and the recorded definitions; the definitions
   accumulated so far ride along *)
Lemma elim_loop2_sound r dermap all0 mt : forall es st defs st' d dd kept,
  elim_loop2 dermap all0 mt st defs es = Some (st', d, dd, kept) ->
  (holds r es /\ facts r dd /\ facts r defs <-> holds r kept /\ facts r d).
Proof.
  assert (N : facts r []) by constructor.
  induction es as [| e es IH]; intros st defs st' d dd kept; cbn [elim_loop2].
  - intros [= _ <- <- <-]. assert (holds r []) by constructor. clear - N H. tauto.
  - destruct st as [[sts dmap] al].
    destruct (extract2 sts all0 al mt e) as [| x v | x v] eqn:X.
    + destruct (elim_loop2 dermap all0 mt (sts, dmap, al) defs es) as [[[[st1 d1] dd1] k1] |] eqn:E;
        [| discriminate]. intros [= _ <- <- <-]. apply loop_keep, (IH _ _ _ _ _ _ E).
    + intro H.
      refine (loop_drop r e es _ _ _ _ _ (solved_sound r _ _ _ (extract2_solved _ _ _ _ _ _ _ (or_introl X)))
                        _ (IH _ _ _ _ _ _ H)).
      rewrite facts_app, facts_cons. exact (drop_def _ _ _ _ N).
    + destruct (promote _ _ _ _ _) as [[[sts1 dmap1] al1] |]; [| discriminate].
      destruct (lookup x dmap1) as [dx |]; [| discriminate].
      destruct (elim_loop2 _ _ _ _ _ es) as [[[[st1 d1] dd1] k1] |] eqn:E; [| discriminate].
      intros [= _ <- <- <-].
      refine (loop_drop r e es _ _ _ _ _ (solved_sound r _ _ _ (extract2_solved _ _ _ _ _ _ _ (or_intror X)))
                        _ (IH _ _ _ _ _ _ E)).
      rewrite facts_app, !facts_cons. exact (drop_def_der _ _ _ _ _ N).
Qed.

Definition elim2_defs (dermap : list (name * name)) (mt : list name) (m : model) : sub * sub :=
  match elim_loop2 dermap (states m ++ algs m) mt (states m, combine (states m) (ders m), algs m) [] (eqs m) with
  | Some (_, defs, ddefs, _) => (defs, ddefs)
  | None => ([], [])
  end.

Theorem sound_eliminate_vars2 r dermap mt m :
  acyclic (fst (elim2_defs dermap mt m)) -> failed (eliminate_vars2 dermap mt m) = false ->
  (sat r m /\ facts r (snd (elim2_defs dermap mt m)) <-> sat r (eliminate_vars2 dermap mt m)).
Proof.
  unfold elim2_defs, eliminate_vars2. intros Hac.
  destruct (elim_loop2 _ _ _ _ _ _) as [[[[[[sts dmap] al] defs] ddefs] kept] |] eqn:E;
    [| cbn [failed set_failed]; congruence].
  cbn [fst snd] in Hac |- *.
  destruct (has_dup (map fst defs)); [cbn [failed set_failed]; congruence |]. intros _.
  pose proof (elim_loop2_sound r _ _ _ _ _ _ _ _ _ _ E) as L.
  assert (N : facts r []) by constructor.
  pose proof (resolved_iff r defs Hac) as RI. unfold resolved in RI.
  destruct (subst_fix SUBSTITUTE_LOOP_LIMIT (map fst defs) (map snd defs)) as [vals conv].
  cbn [fst] in RI. rewrite (sat_iff r m), sat_Model.
  eapply subst_pass; [intros _; reflexivity | rewrite <- RI; exact (eqs_for_defs _ _ _ _ _ _ _ _ N L)].
Qed.
