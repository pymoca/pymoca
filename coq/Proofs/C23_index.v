(* C23: a CasADi slice whose elements all lie inside the dimension selects exactly them; from there the slice
   and loop paths of get_indexed_symbol against the Modelica selection, with and without the range checks. *)
From Coq Require Import ZArith List Bool Lia ZifyBool.
From PV Require Import Model.C23_index.
Import ListNotations.
Open Scope Z_scope.

Lemma mapM_wrap_ok n l : Forall (fun k => 0 <= k < n) l -> mapM (ca_wrap n) l = Ok l.
Proof.
  induction 1 as [|x l Hx _ IH]; cbn [mapM]; [reflexivity|].
  unfold ca_wrap at 1.
  destruct ((x <? - n) || (n <=? x)) eqn:E; [lia|].
  destruct (x <? 0) eqn:E2; [lia|]. rewrite IH. reflexivity.
Qed.

Lemma all_in_Forall n l : all_in n l = true <-> Forall (fun k => 1 <= k <= n) l.
Proof.
  unfold all_in. rewrite forallb_forall, Forall_forall.
  split; intros H x Hx; specialize (H x Hx); unfold in1n in *; lia.
Qed.

Lemma guard_ok n l : Forall (fun k => 1 <= k <= n) l -> guard n l = Ok l.
Proof. intros H. unfold guard. rewrite (proj2 (all_in_Forall n l) H). reflexivity. Qed.

Lemma guard_out n l x : In x l -> ~ 1 <= x <= n -> guard n l = ErrV.
Proof.
  intros Hx Hn. unfold guard. destruct (all_in n l) eqn:E; [|reflexivity].
  apply all_in_Forall in E. rewrite Forall_forall in E. elim Hn. exact (E x Hx).
Qed.

Lemma in_pyrange s e st k :
  In k (pyrange s e st) <-> exists i, 0 <= i < pylen s e st /\ k = s + i * st.
Proof.
  unfold pyrange. rewrite in_map_iff. split.
  - intros (j & <- & Hj). apply in_seq in Hj. exists (Z.of_nat j). split; [lia|reflexivity].
  - intros (i & Hi & ->). exists (Z.to_nat i). split.
    + rewrite Z2Nat.id by lia. reflexivity.
    + apply in_seq. lia.
Qed.

Lemma Forall_pyrange (P : Z -> Prop) s e st :
  (forall i, 0 <= i < pylen s e st -> P (s + i * st)) -> Forall P (pyrange s e st).
Proof.
  intros H. apply Forall_forall. intros k Hk. apply in_pyrange in Hk.
  destruct Hk as (i & Hi & ->). auto.
Qed.

Lemma sgn1_cases st : st <> 0 -> (0 < st /\ sgn1 st = 1) \/ (st < 0 /\ sgn1 st = -1).
Proof. intros H. unfold sgn1. destruct (0 <? st) eqn:A; lia. Qed.

Lemma pylen_eq s e st : pylen s e st = Z.max 0 ((e - s + st - sgn1 st) / st).
Proof.
  destruct (Z.eq_dec st 0) as [->|Hst]; [rewrite Zdiv_0_r; reflexivity|]. unfold pylen. destruct (sgn1_cases st Hst) as [(Hp & ->)|(Hm & ->)].
  - destruct (0 <? st) eqn:A; [|lia]. destruct (s <? e) eqn:B.
    + rewrite Z.max_r; [reflexivity|]. apply Z.div_pos; lia.
    + rewrite Z.max_l; [reflexivity|]. apply Z.lt_succ_r, Z.div_lt_upper_bound; lia.
  - destruct (0 <? st) eqn:A; [lia|]. destruct (st <? 0) eqn:C; [|lia].
    replace ((e - s + st - -1) / st) with ((s - e - st - 1) / - st)
      by (rewrite <- (Z.div_opp_opp (e - s + st - -1)) by lia; f_equal; lia).
    destruct (e <? s) eqn:B.
    + rewrite Z.max_r; [reflexivity|]. apply Z.div_pos; lia.
    + rewrite Z.max_l; [reflexivity|]. apply Z.lt_succ_r, Z.div_lt_upper_bound; lia.
Qed.

Lemma pylen_shift d s e st : pylen (s + d) (e + d) st = pylen s e st.
Proof. rewrite !pylen_eq. do 3 f_equal. lia. Qed.

Lemma pylen_1 s e : pylen s e 1 = Z.max 0 (e - s).
Proof. rewrite pylen_eq. change (sgn1 1) with 1. rewrite Z.div_1_r. f_equal. lia. Qed.

Lemma pylen_nonneg s e st : 0 <= pylen s e st.
Proof. rewrite pylen_eq. apply Z.le_max_l. Qed.

(* recomputing a non-empty range from its last element gives the same length *)
Lemma pylen_from_last a st L :
  st <> 0 -> 0 < L -> pylen a (a + (L - 1) * st + sgn1 st) st = L.
Proof.
  intros Hs HL. rewrite pylen_eq.
  replace (a + (L - 1) * st + sgn1 st - a + st - sgn1 st) with (L * st) by lia.
  rewrite Z.div_mul by exact Hs. lia.
Qed.

Lemma pyrange_shift d s e st :
  map (fun k => k + d) (pyrange s e st) = pyrange (s + d) (e + d) st.
Proof.
  unfold pyrange. rewrite map_map, pylen_shift. apply map_ext. intros; lia.
Qed.

Lemma pyrange_nil s e st : pylen s e st <= 0 -> pyrange s e st = [].
Proof. intros H. unfold pyrange. replace (Z.to_nat (pylen s e st)) with 0%nat by lia. reflexivity. Qed.

Lemma pylen_pos_iff s e st : 0 < pylen s e st <-> (0 < st /\ s < e) \/ (st < 0 /\ e < s).
Proof.
  unfold pylen. split.
  - destruct (0 <? st) eqn:A; [destruct (s <? e) eqn:B | destruct (st <? 0) eqn:C; [destruct (e <? s) eqn:D|]];
      intros H; first [elim (Z.lt_irrefl 0 H) | clear H; lia].
  - intros [[Hs H] | [Hs H]].
    + destruct (0 <? st) eqn:A; [|lia]. destruct (s <? e) eqn:B; [|lia]. apply Z.div_str_pos. lia.
    + destruct (0 <? st) eqn:A; [lia|]. destruct (st <? 0) eqn:C; [|lia]. destruct (e <? s) eqn:D; [|lia].
      apply Z.div_str_pos. lia.
Qed.

Lemma pyrange_cons s e st :
  0 < pylen s e st ->
  exists tl, pyrange s e st = s :: tl /\
             last (pyrange s e st) s = s + (pylen s e st - 1) * st.
Proof.
  intros H. unfold pyrange.
  destruct (Z.to_nat (pylen s e st)) as [|k] eqn:E; [lia|].
  split with (map (fun i => s + Z.of_nat i * st) (seq 1 k)). split.
  - cbn [seq map]. f_equal. lia.
  - rewrite seq_S, map_app. cbn [map]. rewrite last_last. f_equal. f_equal. lia.
Qed.

(* every element of a progression lies between its first and its last element *)
Lemma prog_between lo hi s st L i :
  0 <= i < L -> lo <= s <= hi -> lo <= s + (L - 1) * st <= hi -> lo <= s + i * st <= hi.
Proof.
  intros H Hs Hl. destruct (Z_le_gt_dec 0 st).
  - assert (0 <= i * st) by (apply Z.mul_nonneg_nonneg; lia).
    assert (i * st <= (L - 1) * st) by (apply Z.mul_le_mono_nonneg_r; lia). lia.
  - assert (i * st <= 0) by (apply Z.mul_nonneg_nonpos; lia).
    assert ((L - 1) * st <= i * st) by (apply Z.mul_le_mono_nonpos_r; lia). lia.
Qed.

Lemma index_int c n i : index c n (Int i) = modelica n (Int i).
Proof.
  cbn [index modelica]. unfold guard, all_in, in1n. cbn [forallb].
  destruct ((i <=? 0) || (n <? i)) eqn:E.
  - destruct ((1 <=? i) && (i <=? n) && true) eqn:F; [lia|reflexivity].
  - destruct ((1 <=? i) && (i <=? n) && true) eqn:F; [|lia].
    unfold ca_wrap. destruct ((i - 1 <? - n) || (n <=? i - 1)) eqn:G; [lia|].
    destruct (i - 1 <? 0) eqn:G2; [lia|]. cbn [rmap shift1 map]. do 2 f_equal. lia.
Qed.

(* q is the stop CasADi works with: the given one if non-negative, -1 for a descending slice without stop *)
Lemma ca_slice_nn n p oq q st :
  st <> 0 -> 0 <= p -> (oq = Some q /\ 0 <= q) \/ (oq = None /\ st < 0 /\ q = -1) ->
  ca_slice n (Some p) oq st =
    if n <? q then ErrB else
    if ((p <=? q) && (st <? 0)) || ((q <=? p) && (0 <? st)) then Ok [] else
    if n <=? p then ErrB else mapM (ca_wrap n) (pyrange p q st).
Proof.
  intros Hst Hp Hq. unfold ca_slice. cbv beta iota zeta.
  destruct (st =? 0) eqn:Z0; [lia|]. destruct (p <? 0) eqn:A; [lia|].
  destruct Hq as [(-> & Hq) | (-> & Hneg & ->)].
  - destruct (q <? 0) eqn:B; [lia|]. cbv iota. rewrite A. reflexivity.
  - destruct (st <? 0) eqn:B; [|lia]. cbv iota. rewrite A. reflexivity.
Qed.

(* CasADi's own emptiness test says no more than that the range is empty: a slice from a-1 whose
   elements, counted from 1, all lie in 1..n selects exactly them *)
Lemma ca_slice_ok n a oq q st :
  st <> 0 -> 1 <= a -> (oq = Some q /\ 0 <= q) \/ (oq = None /\ st < 0 /\ q = -1) -> q <= n ->
  Forall (fun k => 1 <= k <= n) (pyrange a (q + 1) st) ->
  shift1 (ca_slice n (Some (a - 1)) oq st) = Ok (pyrange a (q + 1) st).
Proof.
  intros Hst Ha Hq Hqn Hall.
  pose proof (pyrange_shift 1 (a - 1) q st) as HR. replace (a - 1 + 1) with a in HR by lia.
  rewrite <- HR in Hall |- *. rewrite Forall_map, Forall_forall in Hall.
  rewrite (ca_slice_nn n (a - 1) oq q st) by (assumption || lia).
  destruct (n <? q) eqn:N1; [lia|].
  pose proof (pylen_pos_iff (a - 1) q st) as HL.
  destruct (((a - 1 <=? q) && (st <? 0)) || ((q <=? a - 1) && (0 <? st))) eqn:N2.
  - rewrite pyrange_nil; [reflexivity|]. clear - HL N2. lia.
  - assert (H0 : 1 <= a - 1 + 1 <= n).
    { apply Hall, in_pyrange. exists 0. split; [|lia]. clear - HL N2 Hst. lia. }
    destruct (n <=? a - 1) eqn:N3; [lia|].
    rewrite mapM_wrap_ok; [reflexivity|].
    apply Forall_forall. intros k Hk. specialize (Hall k Hk). cbn beta in Hall. lia.
Qed.

(* the slice as coded (:902), for a:b with 1 <= a and 0 <= b <= n *)
Lemma slice_as_coded n a b :
  1 <= a -> 0 <= b <= n ->
  shift1 (ca_slice n (Some (a - 1)) (Some b) 1) = guard n (mrange a 1 b).
Proof.
  intros Ha Hb. change (mrange a 1 b) with (pyrange a (b + 1) 1).
  assert (Hall : Forall (fun k => 1 <= k <= n) (pyrange a (b + 1) 1)).
  { apply Forall_pyrange. intros i Hi. rewrite pylen_1 in Hi. lia. }
  rewrite (guard_ok n _ Hall).
  apply ca_slice_ok; try assumption; try lia. left. split; [reflexivity|lia].
Qed.

(* a non-empty range with both endpoints inside 1..n: every element lies between them, so inside; the
   slice the repaired code hands to CasADi is the same range, recomputed from its last element *)
Lemma slice_from_endpoints n a e st :
  let L := pylen a e st in let pl := a + (L - 1) * st in let q := pl - 1 + sgn1 st in
  st <> 0 -> 0 < L -> 1 <= a <= n -> 1 <= pl <= n ->
  shift1 (ca_slice n (Some (a - 1)) (if q <? 0 then None else Some q) st) = guard n (pyrange a e st).
Proof.
  intros L pl q Hst HL Ha Hpl.
  assert (Hall : Forall (fun k => 1 <= k <= n) (pyrange a e st)).
  { apply Forall_pyrange. fold L. intros i Hi. apply (prog_between 1 n a st L i); assumption. }
  rewrite (guard_ok n _ Hall). pose proof (sgn1_cases st Hst) as Hsg.
  assert (HLq : pylen a (q + 1) st = L).
  { replace (q + 1) with (pl + sgn1 st) by (unfold q; lia). apply pylen_from_last; lia. }
  replace (pyrange a e st) with (pyrange a (q + 1) st) in Hall |- *
    by (unfold pyrange; rewrite HLq; reflexivity).
  assert (Hq : -1 <= q <= n /\ (q < 0 -> st < 0 /\ q = -1)) by (unfold q; clear - Hpl Hsg; lia).
  clearbody q. clear Hsg Hpl.
  apply ca_slice_ok; try assumption; try lia.
  destruct (q <? 0) eqn:N; [right|left]; (split; [reflexivity|lia]).
Qed.

Lemma slice_checked c n a b st :
  chk_slice c = true -> st <> 0 -> 0 <= n ->
  slice_path c n a b st = guard n (mrange a st b).
Proof.
  intros Hc Hst Hn. unfold slice_path, mrange. rewrite Hc.
  destruct (st =? 0) eqn:Z0; [lia|]. cbv zeta.
  set (e := b + sgn1 st). set (L := pylen a e st).
  destruct (Z_le_gt_dec L 0) as [HL|HL].
  - rewrite (pyrange_nil a e st HL).
    apply (ca_slice_ok n 1 (Some 0) 0 1); try lia; [left; split; [reflexivity|lia] | constructor].
  - destruct (pyrange_cons a e st) as (tl & Hcons & Hlast); [fold L; lia|].
    fold L in Hlast. set (pl := a + (L - 1) * st) in *.
    rewrite Hcons. cbv beta iota. rewrite <- Hcons, Hlast.
    destruct ((Z.min a pl <? 1) || (n <? Z.max a pl)) eqn:Chk.
    + (* an endpoint is outside: ValueError, and the guard fails on that endpoint *)
      assert (Hmem : forall i, 0 <= i < L -> In (a + i * st) (pyrange a e st))
        by (intros i Hi; apply in_pyrange; exists i; auto).
      symmetry. assert (~ 1 <= a + 0 * st <= n \/ ~ 1 <= pl <= n) as [H|H] by (clear - Chk; lia).
      * apply (guard_out n _ _ (Hmem 0 ltac:(lia)) H).
      * apply (guard_out n _ _ (Hmem (L - 1) ltac:(lia)) H).
    + apply slice_from_endpoints; (assumption || (clear - Chk; lia) || lia).
Qed.

Lemma loop_tail_ok n idx :
  Forall (fun k => 1 <= k <= n) idx ->
  shift1 (mapM (ca_wrap n) (map (fun k => k - 1) idx)) = Ok idx.
Proof.
  intros H. rewrite mapM_wrap_ok.
  - cbn [shift1 rmap]. rewrite map_map. f_equal. rewrite <- (map_id idx) at 2.
    apply map_ext. intros; lia.
  - rewrite Forall_map. eapply Forall_impl; [|exact H]. cbn beta. intros; lia.
Qed.

(* the implementation's outcome agrees with the specification, except that a legal EMPTY
   selection may be refused with a backend error (a map over zero loop values) *)
Definition agrees (impl spec : res (list Z)) : Prop :=
  impl = spec \/ (spec = Ok [] /\ impl = ErrB).

(* ... and the exception is open only while the empty-range repair is missing *)
Definition agrees_eo (eo : bool) (impl spec : res (list Z)) : Prop :=
  impl = spec \/ (eo = false /\ spec = Ok [] /\ impl = ErrB).

Lemma agrees_eo_agrees eo impl spec : agrees_eo eo impl spec -> agrees impl spec.
Proof. intros [H|(_ & H)]; [left|right]; exact H. Qed.

Lemma agrees_eo_exact impl spec : agrees_eo true impl spec -> impl = spec.
Proof. intros [H|(H & _)]; [exact H|discriminate]. Qed.

(* the stop the code computes is the Modelica one for a two-part range, and for any range once
   a:b:c is read start:step:stop *)
Lemma loop_stop c b st :
  mod3 c = true \/ st = 1 -> (if mod3 c then b + sgn1 st else b + st) = b + sgn1 st.
Proof. intros [-> | ->]; [|destruct (mod3 c)]; reflexivity. Qed.

(* the loop path read against the Modelica range: an empty map is refused (before f8eb4b4); all indices
   inside: CasADi returns them; else the range check, where present, raises *)
Lemma loopF_spec c n a b st f bare :
  st <> 0 -> mod3 c = true \/ st = 1 ->
  let idx := map f (mrange a st b) in
  loop_pathF c n a b st f bare =
    if negb bare && negb (empty_ok c) && match mrange a st b with [] => true | _ => false end then ErrB
    else if all_in n idx then Ok idx
    else if chk_loop c then ErrV else shift1 (mapM (ca_wrap n) (map (fun k => k - 1) idx)).
Proof.
  intros Hst H3. unfold loop_pathF. rewrite (loop_stop c b st H3). fold (mrange a st b).
  destruct (st =? 0) eqn:Z0; [lia|]. cbv zeta.
  destruct (negb bare && negb (empty_ok c) && _); [reflexivity|].
  destruct (all_in n (map f (mrange a st b))) eqn:A.
  - rewrite andb_false_r. apply loop_tail_ok, all_in_Forall, A.
  - rewrite andb_true_r. reflexivity.
Qed.

Lemma loopF_checked c n a b st f bare :
  chk_loop c = true -> st <> 0 -> mod3 c = true \/ st = 1 ->
  agrees_eo (empty_ok c) (loop_pathF c n a b st f bare) (guard n (map f (mrange a st b))).
Proof.
  intros Hc Hst H3. rewrite loopF_spec by assumption. cbv zeta. rewrite Hc. unfold guard.
  destruct (negb bare && negb (empty_ok c) && _) eqn:E; [right | left; reflexivity].
  destruct (mrange a st b); [|rewrite andb_false_r in E; discriminate].
  destruct (empty_ok c); [rewrite andb_false_r in E; discriminate|]. repeat split.
Qed.

Lemma loopF_in_range c n a b f bare :
  (forall i, a <= i <= b -> 1 <= f i <= n) -> (bare = true \/ a <= b) ->
  loop_pathF c n a b 1 f bare = guard n (map f (mrange a 1 b)).
Proof.
  intros Hin Hne. rewrite loopF_spec by (lia || (right; reflexivity)). cbv zeta.
  assert (Hall : Forall (fun k => 1 <= k <= n) (map f (mrange a 1 b))).
  { rewrite Forall_map. apply Forall_pyrange. intros i Hi. rewrite pylen_1 in Hi.
    apply Hin. change (sgn1 1) with 1 in Hi. lia. }
  rewrite (guard_ok n _ Hall), (proj2 (all_in_Forall n _) Hall).
  destruct (negb bare && negb (empty_ok c) && _) eqn:E; [exfalso|reflexivity].
  destruct Hne as [->|Hab]; [discriminate|].
  destruct (pyrange_cons a (b + 1) 1) as (tl & Hc & _); [rewrite pylen_1; lia|].
  change (pyrange a (b + 1) 1) with (mrange a 1 b) in Hc.
  rewrite Hc, andb_false_r in E. discriminate.
Qed.

Definition in_range (n : Z) (u : sub) : Prop :=
  match u with
  | Int _ => True
  | Colon => True
  | Sl a b => 1 <= a /\ 0 <= b <= n
  | LoopV a b off => (forall i, a <= i <= b -> 1 <= i + off <= n) /\ (off = 0 \/ a <= b)
  | LoopX a b e => (forall i, a <= i <= b -> 1 <= leval e i <= n) /\ (is_var e = true \/ a <= b)
  | Sl3 _ _ _ => False
  | LoopV3 _ _ _ _ => False
  | LoopX3 _ _ _ _ => False
  end.

Lemma ca_slice_all n : 0 <= n -> ca_slice n None None 1 = ca_slice n (Some 0) (Some n) 1.
Proof. intros Hn. unfold ca_slice. cbn. destruct (n <? 0) eqn:E; [lia|reflexivity]. Qed.

Lemma colon_as_slice c n :
  0 <= n -> index c n Colon = index c n (Sl 1 n) /\ modelica n Colon = modelica n (Sl 1 n).
Proof.
  intros Hn. cbn [index modelica]. split.
  - destruct (chk_slice c) eqn:Hc; [reflexivity|]. unfold slice_path. rewrite Hc.
    f_equal. exact (ca_slice_all n Hn).
  - symmetry. apply guard_ok. apply Forall_pyrange. intros i Hi. rewrite pylen_1 in Hi.
    change (sgn1 1) with 1 in Hi. lia.
Qed.

Lemma index_in_range c n u : 0 <= n -> in_range n u -> index c n u = modelica n u.
Proof.
  intros Hn H.
  assert (HSl : forall a b, 1 <= a /\ 0 <= b <= n -> index c n (Sl a b) = modelica n (Sl a b)).
  { intros a b (Ha & Hb). cbn [index modelica]. destruct (chk_slice c) eqn:Hc.
    - apply slice_checked; (assumption || lia).
    - unfold slice_path. rewrite Hc. apply slice_as_coded; assumption. }
  destruct u as [i| |a b|a b c3|a b off|a b c3 off|a b e|a b c3 e]; cbn [in_range] in H; try contradiction.
  - apply index_int.
  - destruct (colon_as_slice c n Hn) as [-> ->]. apply HSl. lia.
  - apply HSl. exact H.
  - destruct H as (H1 & H2). apply (loopF_in_range c n a b (fun v => v + off) (off =? 0)); [exact H1|].
    destruct H2 as [->|H2]; [left; reflexivity|right; exact H2].
  - destruct H as (H1 & H2). apply loopF_in_range; assumption.
Qed.

(* what the checked theorems ask of a subscript: a non-zero step, and a three-part range only where a:b:c is
   read start:step:stop *)
Definition wf (c : cfg) (u : sub) : Prop :=
  step_of u <> 0 /\ (three_part u = true -> mod3 c = true).

Lemma index_checked_eo c n u :
  chk_slice c = true -> chk_loop c = true -> wf c u -> 0 <= n ->
  agrees_eo (empty_ok c) (index c n u) (modelica n u).
Proof.
  intros Hs Hl (Hstep & H3) Hn.
  destruct u as [i| |a b|a b c3|a b off|a b c3 off|a b e|a b c3 e]; cbn [step_of three_part] in *.
  - left. apply index_int.
  - left. destruct (colon_as_slice c n Hn) as [-> ->]. apply slice_checked; (assumption || lia).
  - left. apply slice_checked; (assumption || lia).
  - left. cbn [index]. rewrite (H3 eq_refl). apply slice_checked; assumption.
  - apply (loopF_checked c n a b 1 (fun v => v + off)); [assumption | lia | right; reflexivity].
  - cbn [index]. rewrite (H3 eq_refl).
    apply (loopF_checked c n a c3 b (fun v => v + off)); [assumption | assumption | left; exact (H3 eq_refl)].
  - apply loopF_checked; [assumption | lia | right; reflexivity].
  - cbn [index]. rewrite (H3 eq_refl).
    apply loopF_checked; [assumption | assumption | left; exact (H3 eq_refl)].
Qed.

Lemma index_checked c n u :
  chk_slice c = true -> chk_loop c = true -> wf c u -> 0 <= n ->
  agrees (index c n u) (modelica n u).
Proof. intros Hs Hl Hw Hn. exact (agrees_eo_agrees _ _ _ (index_checked_eo c n u Hs Hl Hw Hn)). Qed.

Lemma index_checked_exact c n u :
  chk_slice c = true -> chk_loop c = true -> empty_ok c = true -> wf c u -> 0 <= n ->
  index c n u = modelica n u.
Proof.
  intros Hs Hl He Hw Hn. apply agrees_eo_exact. rewrite <- He. apply index_checked_eo; assumption.
Qed.

Lemma two_part_wf c u : three_part u = false -> wf c u.
Proof.
  intros H. split; [destruct u; cbn in *; (discriminate || lia)|rewrite H; discriminate].
Qed.

Lemma agrees_sound impl spec l : agrees impl spec -> impl = Ok l -> spec = Ok l.
Proof. intros [->|(-> & ->)] H; [exact H|discriminate]. Qed.

Lemma agrees_reject impl spec : agrees impl spec -> spec = ErrV -> impl = ErrV.
Proof. intros [->|(-> & ->)] H; [exact H|discriminate]. Qed.

Lemma agrees_complete impl spec l : agrees impl spec -> spec = Ok l -> l <> [] -> impl = Ok l.
Proof. intros [->|(-> & ->)] H Hl; [exact H|]. injection H as <-. contradiction. Qed.
